(* C05 -- what bindgen makes of an object-like integer macro: the crate
   cexpr 0.6 evaluates the body ([rs_eval]: untyped Wrapping<i64>) and
   [macro_kind] picks the integer kind of the constant.  The C meaning of the
   same body on an LP64 target is [c_eval]. *)
From Coq Require Import ZArith Bool List Lia.
From BG Require Import C05.Model C05.Proofs.
Import ListNotations.
Open Scope Z_scope.

(* the arguments of [macro_kind]: whether default_macro_constant_type is MacroTypeVariation::Signed, and
   the option fit_macro_constants *)
Theorem kind_holds_value : forall sd fit v, - 2 ^ 63 <= v < 2 ^ 63 ->
  kind_min (macro_kind sd fit v) <= v <= kind_max (macro_kind sd fit v) /\
  (v < 0 -> kind_signed (macro_kind sd fit v) = true).
Proof. exact Proofs.kind_holds_value. Qed.
Print Assumptions kind_holds_value.

Theorem kind_fit_minimal : forall v,
  (0 <= v < 2 ^ 63 ->
     kind_signed (macro_kind false true v) = false /\
     kind_min (macro_kind false true v) <= v <= kind_max (macro_kind false true v) /\
     forall k', kind_signed k' = false -> kind_min k' <= v <= kind_max k' ->
                kind_bits (macro_kind false true v) <= kind_bits k') /\
  (- 2 ^ 63 <= v < 0 -> forall sd,
     kind_signed (macro_kind sd true v) = true /\
     kind_min (macro_kind sd true v) <= v <= kind_max (macro_kind sd true v) /\
     forall k', kind_signed k' = true -> kind_min k' <= v <= kind_max k' ->
                kind_bits (macro_kind sd true v) <= kind_bits k').
Proof.
  intros v. split; [intros Hv | intros Hv sd]; apply macro_kind_fit_minimal; lia.
Qed.
Print Assumptions kind_fit_minimal.

Theorem kind_fit_minimal_signed_default : forall v, - 2 ^ 63 <= v < 2 ^ 63 ->
  kind_signed (macro_kind true true v) = true /\
  kind_min (macro_kind true true v) <= v <= kind_max (macro_kind true true v) /\
  forall k', kind_signed k' = true -> kind_min k' <= v <= kind_max k' ->
             kind_bits (macro_kind true true v) <= kind_bits k'.
Proof. intros v Hv. apply macro_kind_fit_minimal; [exact Hv | apply orb_true_r]. Qed.
Print Assumptions kind_fit_minimal_signed_default.

Theorem kind_nofit_at_least_32 : forall sd v,
  32 <= kind_bits (macro_kind sd false v).
Proof.
  intros sd v. unfold macro_kind. cbn [negb orb].
  destruct ((v <? 0) || sd), ((v <? - 2 ^ 31) || (v >? 2 ^ 31 - 1)),
    (v >? 2 ^ 32 - 1); cbn [kind_bits]; lia.
Qed.
Print Assumptions kind_nofit_at_least_32.

Example macro_kind_nonvacuous :
  macro_kind false true 255 = U8 /\ macro_kind false true 256 = U16 /\
  macro_kind false true 65536 = U32 /\ macro_kind false true 4294967296 = U64 /\
  macro_kind false false 1 = U32 /\ macro_kind true false 1 = I32 /\
  macro_kind false true (-1) = I8 /\ macro_kind false true (-129) = I16 /\
  macro_kind false true (-32769) = I32 /\
  macro_kind false true (-2147483649) = I64 /\
  macro_kind true true 128 = I16.
Proof. vm_compute. repeat split. Qed.
Print Assumptions macro_kind_nonvacuous.

(* every C result has one of the four types and is representable in it
   (in particular the conversions to a signed type inside c_eval, which the
   model takes to be the identity, never see an unrepresentable value) *)
Theorem c_eval_in_range : forall e t v,
  c_eval e = Some (t, v) ->
  (bits t = 32%N \/ bits t = 64%N) /\ tmin t <= v <= tmax t.
Proof. exact Proofs.c_eval_in_range. Qed.
Print Assumptions c_eval_in_range.

Theorem rs_eval_in_i64 : forall e v,
  rs_eval e = RsInt v -> - 2 ^ 63 <= v < 2 ^ 63.
Proof.
  induction e as [r z u l | o a IHa | o a IHa b IHb]; intros v; cbn [rs_eval].
  - apply rs_lit_in_i64.
  - destruct (rs_eval a) as [x | | ]; try discriminate.
    intros [= <-]. apply rs_un_in_i64, IHa. reflexivity.
  - destruct (rs_eval a) as [x | | ]; try discriminate.
    destruct (rs_eval b) as [y | | ]; try discriminate.
    apply rs_bin_in_i64; [apply IHa | apply IHb]; reflexivity.
Qed.
Print Assumptions rs_eval_in_i64.

(* ... so the precondition of kind_holds_value is always met in the tool *)
Theorem constant_kind_holds_value : forall e v sd fit,
  rs_eval e = RsInt v ->
  kind_min (macro_kind sd fit v) <= v <= kind_max (macro_kind sd fit v) /\
  (v < 0 -> kind_signed (macro_kind sd fit v) = true).
Proof.
  intros e v sd fit H. apply kind_holds_value. apply (rs_eval_in_i64 e v H).
Qed.
Print Assumptions constant_kind_holds_value.

Theorem faithful_partial : forall e t v,
  benign e = true -> c_eval e = Some (t, v) -> rs_eval e = RsInt v.
Proof. exact Proofs.faithful_partial. Qed.
Print Assumptions faithful_partial.

Theorem benign_agrees_with_ideal : forall e, benign e = true ->
  exists t v, c_eval e = Some (t, v) /\ ideal e = Some v.
Proof.
  intros e Hb. destruct (benign_inv e Hb) as (t & v & Hc & Hi & _). eauto.
Qed.
Print Assumptions benign_agrees_with_ideal.

Theorem benign_sub_un : forall o a, benign (Un o a) = true -> benign a = true.
Proof. intros o a H. apply benign_Un in H. tauto. Qed.
Print Assumptions benign_sub_un.

Theorem benign_sub_bin : forall o a b,
  benign (Bin o a b) = true -> benign a = true /\ benign b = true.
Proof. intros o a b H. apply benign_Bin in H. tauto. Qed.
Print Assumptions benign_sub_bin.

Theorem benign_in_i64 : forall e t v,
  benign e = true -> c_eval e = Some (t, v) -> - 2 ^ 63 <= v < 2 ^ 63.
Proof.
  intros e t v Hb Hc. apply (benign_value e t v Hb Hc).
Qed.
Print Assumptions benign_in_i64.

Theorem benign_constant_correct : forall e t v sd fit,
  benign e = true -> c_eval e = Some (t, v) ->
  rs_eval e = RsInt v /\
  kind_min (macro_kind sd fit v) <= v <= kind_max (macro_kind sd fit v).
Proof.
  intros e t v sd fit Hb Hc. pose proof (faithful_partial e t v Hb Hc) as Hr.
  split; [exact Hr | apply (constant_kind_holds_value e v sd fit Hr)].
Qed.
Print Assumptions benign_constant_correct.

(* a syntactic sufficient condition: if every literal of the macro has a
   signed C type (int or long) then, whenever C defines the macro's value,
   the macro is benign and cexpr computes that value.  (Signed overflow is
   undefined in C, so there is nothing for Wrapping<i64> to get wrong.) *)
Theorem signed_only_benign : forall e t v,
  signed_only e = true -> c_eval e = Some (t, v) ->
  benign e = true /\ signed t = true.
Proof.
  intros e t v Hso Hc. split.
  - exact (signed_only_defined_benign e t v Hc Hso).
  - exact (signed_only_signed e t v Hc Hso).
Qed.
Print Assumptions signed_only_benign.

Theorem signed_only_faithful : forall e t v,
  signed_only e = true -> c_eval e = Some (t, v) -> rs_eval e = RsInt v.
Proof. exact Proofs.signed_only_faithful. Qed.
Print Assumptions signed_only_faithful.

Example benign_nonvacuous :
  (* (1 << 4) | 3 *)
  benign (Bin BOr (Bin BShl (Lit Dec 1 false false) (Lit Dec 4 false false))
                  (Lit Dec 3 false false)) = true /\
  (* 10 * 1024 - 1 *)
  benign (Bin BSub (Bin BMul (Lit Dec 10 false false) (Lit Dec 1024 false false))
                   (Lit Dec 1 false false)) = true /\
  (* 0xFFu >> 2 *)
  benign (Bin BShr (Lit Hex 255 true false) (Lit Dec 2 false false)) = true /\
  (* -(5) *)
  benign (Un UNeg (Lit Dec 5 false false)) = true /\
  (* ~0x0F & 0xFF *)
  benign (Bin BAnd (Un UNot (Lit Hex 15 false false))
                   (Lit Hex 255 false false)) = true /\
  (* the three witnesses of faithful_refuted *)
  benign (Un UNot (Lit Dec 0 true false)) = false /\
  benign (Bin BAdd (Lit Hex 4294967295 false false) (Lit Dec 1 false false))
    = false /\
  benign (Bin BDiv (Un UNeg (Lit Dec 1 false false)) (Lit Dec 2 true false))
    = false.
Proof. vm_compute. repeat split. Qed.
Print Assumptions benign_nonvacuous.

Example benign_values_nonvacuous :
  c_eval (Bin BOr (Bin BShl (Lit Dec 1 false false) (Lit Dec 4 false false))
                  (Lit Dec 3 false false)) = Some (t_int, 19) /\
  c_eval (Bin BSub (Bin BMul (Lit Dec 10 false false) (Lit Dec 1024 false false))
                   (Lit Dec 1 false false)) = Some (t_int, 10239) /\
  c_eval (Bin BShr (Lit Hex 255 true false) (Lit Dec 2 false false))
    = Some (t_uint, 63) /\
  c_eval (Un UNeg (Lit Dec 5 false false)) = Some (t_int, -5) /\
  c_eval (Bin BAnd (Un UNot (Lit Hex 15 false false))
                   (Lit Hex 255 false false)) = Some (t_int, 240).
Proof. vm_compute. repeat split. Qed.
Print Assumptions benign_values_nonvacuous.

Example signed_only_nonvacuous :
  signed_only (Bin BOr (Bin BShl (Lit Dec 1 false false) (Lit Dec 4 false false))
                       (Lit Dec 3 false false)) = true /\
  signed_only (Bin BAnd (Un UNot (Lit Hex 15 false false))
                        (Lit Hex 255 false false)) = true /\
  signed_only (Bin BShr (Lit Hex 255 true false) (Lit Dec 2 false false))
    = false /\
  (* 0x80000000 has type unsigned int although it carries no suffix *)
  signed_only (Lit Hex 2147483648 false false) = false.
Proof. vm_compute. repeat split. Qed.
Print Assumptions signed_only_nonvacuous.

(* "cexpr computes the C value whenever both produce one" is false *)
Theorem faithful_refuted :
  (exists e t v v',
     c_eval e = Some (t, v) /\ rs_eval e = RsInt v' /\ v <> v') /\
  (* ~0u : C 4294967295 (unsigned int), cexpr -1 *)
  (c_eval (Un UNot (Lit Dec 0 true false)) = Some (t_uint, 4294967295) /\
   rs_eval (Un UNot (Lit Dec 0 true false)) = RsInt (-1)) /\
  (* 0xFFFFFFFF + 1 : C 0 (unsigned int wraps), cexpr 4294967296 *)
  (c_eval (Bin BAdd (Lit Hex 4294967295 false false) (Lit Dec 1 false false))
     = Some (t_uint, 0) /\
   rs_eval (Bin BAdd (Lit Hex 4294967295 false false) (Lit Dec 1 false false))
     = RsInt 4294967296) /\
  (* -1 / 2u : C 2147483647 (-1 converted to unsigned int), cexpr 0 *)
  (c_eval (Bin BDiv (Un UNeg (Lit Dec 1 false false)) (Lit Dec 2 true false))
     = Some (t_uint, 2147483647) /\
   rs_eval (Bin BDiv (Un UNeg (Lit Dec 1 false false)) (Lit Dec 2 true false))
     = RsInt 0).
Proof. exact Proofs.faithful_refuted. Qed.
Print Assumptions faithful_refuted.

Theorem faithful_refuted_more :
  (* 3u << 31 *)
  (c_eval (Bin BShl (Lit Dec 3 true false) (Lit Dec 31 false false))
     = Some (t_uint, 2147483648) /\
   rs_eval (Bin BShl (Lit Dec 3 true false) (Lit Dec 31 false false))
     = RsInt 6442450944) /\
  (* 0xFFFFFFFFFFFFFFFF >> 63 *)
  (c_eval (Bin BShr (Lit Hex 18446744073709551615 false false)
                    (Lit Dec 63 false false)) = Some (t_ulong, 1) /\
   rs_eval (Bin BShr (Lit Hex 18446744073709551615 false false)
                     (Lit Dec 63 false false)) = RsInt (-1)) /\
  (* 0xFFFFFFFFFFFFFFFF *)
  (c_eval (Lit Hex 18446744073709551615 false false)
     = Some (t_ulong, 18446744073709551615) /\
   rs_eval (Lit Hex 18446744073709551615 false false) = RsInt (-1)) /\
  (* 1 << 32, 1 << -1, 2147483647 + 1 : undefined in C, a number in cexpr *)
  (c_eval (Bin BShl (Lit Dec 1 false false) (Lit Dec 32 false false)) = None /\
   rs_eval (Bin BShl (Lit Dec 1 false false) (Lit Dec 32 false false))
     = RsInt 4294967296) /\
  (c_eval (Bin BShl (Lit Dec 1 false false)
                    (Un UNeg (Lit Dec 1 false false))) = None /\
   rs_eval (Bin BShl (Lit Dec 1 false false)
                     (Un UNeg (Lit Dec 1 false false)))
     = RsInt (-9223372036854775808)) /\
  (c_eval (Bin BAdd (Lit Dec 2147483647 false false) (Lit Dec 1 false false))
     = None /\
   rs_eval (Bin BAdd (Lit Dec 2147483647 false false) (Lit Dec 1 false false))
     = RsInt 2147483648).
Proof. vm_compute. repeat split. Qed.
Print Assumptions faithful_refuted_more.

(* "evaluation never panics" is false: 1/0 aborts the tool *)
Theorem eval_panics_refuted :
  exists e, rs_eval e = RsPanic /\ c_eval e = None.
Proof.
  exists (Bin BDiv (Lit Dec 1 false false) (Lit Dec 0 false false)).
  vm_compute. split; reflexivity.
Qed.
Print Assumptions eval_panics_refuted.

Theorem rs_eval_total_on_nonzero_divisors : forall e,
  no_zero_divisor e = true -> rs_eval e <> RsPanic.
Proof.
  induction e as [r v u l | o a IHa | o a IHa b IHb]; cbn [no_zero_divisor rs_eval].
  - intros _. unfold rs_lit. destruct ((v <? 0) || (2 ^ 64 <=? v)); discriminate.
  - intros Hn. specialize (IHa Hn).
    destruct (rs_eval a); [discriminate | exact IHa | discriminate].
  - rewrite !andb_true_iff. intros [[Hna Hnb] Hd].
    specialize (IHa Hna). specialize (IHb Hnb).
    destruct (rs_eval a) as [x | | ]; [ | exact IHa | discriminate].
    destruct (rs_eval b) as [y | | ]; [ | exact IHb | discriminate].
    intros Hp. apply rs_bin_panic in Hp. destruct Hp as [[-> | ->] ->]; discriminate Hd.
Qed.
Print Assumptions rs_eval_total_on_nonzero_divisors.

Example no_zero_divisor_nonvacuous :
  no_zero_divisor (Bin BDiv (Lit Dec 7 false false) (Lit Dec 2 false false))
    = true /\
  no_zero_divisor (Bin BDiv (Lit Dec 1 false false) (Lit Dec 0 false false))
    = false /\
  (* a divisor that is zero only after cexpr's own arithmetic: 1 % (2 - 2) *)
  no_zero_divisor
    (Bin BRem (Lit Dec 1 false false)
              (Bin BSub (Lit Dec 2 false false) (Lit Dec 2 false false)))
    = false.
Proof. vm_compute. repeat split. Qed.
Print Assumptions no_zero_divisor_nonvacuous.
