From Coq Require Import ZArith Bool List Lia.
From BG Require Import C05.Model.
Import ListNotations.
Open Scope Z_scope.

Definition holds (k : ikind) (v : Z) : Prop := kind_min k <= v <= kind_max k.

Lemma macro_kind_spec sd fit v : - 2 ^ 63 <= v < 2 ^ 63 ->
  kind_signed (macro_kind sd fit v) = (v <? 0) || sd /\
  holds (macro_kind sd fit v) v /\
  (fit = true -> forall k', kind_signed k' = kind_signed (macro_kind sd fit v) ->
     holds k' v -> kind_bits (macro_kind sd fit v) <= kind_bits k').
Proof.
  intros Hv. unfold holds.
  remember (macro_kind sd fit v) as K eqn:HK. unfold macro_kind in HK.
  (* one case per leaf of the decision tree; the tests on the way to it are
     kept as boolean equations, which lia reads.  The tree is taken apart in
     the equation for K only, so that the goal never contains it. *)
  repeat match type of HK with
         | context [if ?c then _ else _] => destruct c eqn:?
         end;
    subst K; cbn [kind_min kind_max kind_signed kind_bits];
    (split; [reflexivity | split; [lia | ]]); intros ->;
    intros k' Hs Hh; destruct k'; try discriminate Hs;
    cbn [kind_min kind_max kind_signed kind_bits] in Hh |- *;
    (* a k' at least as wide as K: two numerals are compared by computation *)
    try discriminate; lia.
Qed.

Lemma macro_kind_fit_minimal sd v s : - 2 ^ 63 <= v < 2 ^ 63 -> (v <? 0) || sd = s ->
  kind_signed (macro_kind sd true v) = s /\
  holds (macro_kind sd true v) v /\
  forall k', kind_signed k' = s -> holds k' v ->
             kind_bits (macro_kind sd true v) <= kind_bits k'.
Proof.
  intros Hv <-. destruct (macro_kind_spec sd true v Hv) as [Hs [Hh Hm]].
  rewrite Hs in Hm. auto.
Qed.

Lemma kind_holds_value : forall sd fit v, - 2 ^ 63 <= v < 2 ^ 63 ->
  kind_min (macro_kind sd fit v) <= v <= kind_max (macro_kind sd fit v) /\
  (v < 0 -> kind_signed (macro_kind sd fit v) = true).
Proof.
  intros sd fit v Hv. destruct (macro_kind_spec sd fit v Hv) as [Hs [Hh _]].
  split; [exact Hh | ]. intros Hn. apply Z.ltb_lt in Hn. rewrite Hs, Hn. reflexivity.
Qed.

Definition promoted (t : ctype) : Prop := bits t = 32%N \/ bits t = 64%N.
Definition in_range (t : ctype) (v : Z) : Prop := tmin t <= v <= tmax t.

Lemma fits_spec t v : fits t v = true <-> in_range t v.
Proof. unfold fits, in_range. rewrite andb_true_iff, !Z.leb_le. tauto. Qed.

Lemma in_range_iff t v : in_range t v <->
  if signed t then - 2 ^ (width t - 1) <= v < 2 ^ (width t - 1)
  else 0 <= v < 2 ^ width t.
Proof. unfold in_range, tmin, tmax. destruct (signed t); lia. Qed.

Lemma promoted_width t : promoted t -> width t = 32 \/ width t = 64.
Proof. intros [H | H]; unfold width; rewrite H; auto. Qed.

Lemma mod_in_range t z : signed t = false -> in_range t (z mod 2 ^ width t).
Proof.
  intros Hs. rewrite in_range_iff, Hs. apply Z.mod_pos_bound.
  apply Z.pow_pos_nonneg; [lia | apply N2Z.is_nonneg].
Qed.

(* every value of [s] is a value of the signed type [t]: C11 6.3.1.3p1 *)
Lemma in_range_widen s t v : signed t = true ->
  (if signed s then bits s <= bits t else bits s < bits t)%N ->
  in_range s v -> in_range t v.
Proof.
  rewrite !in_range_iff. intros -> Hb. unfold width. destruct (signed s).
  - pose proof (Z.pow_le_mono_r 2 (Z.of_N (bits s) - 1) (Z.of_N (bits t) - 1)). lia.
  - pose proof (Z.pow_le_mono_r 2 (Z.of_N (bits s)) (Z.of_N (bits t) - 1)). lia.
Qed.

Lemma i64_in_range v : - 2 ^ 63 <= v < 2 ^ 63 <-> in_range t_long v.
Proof. rewrite in_range_iff. reflexivity. Qed.

Lemma signed_in_i64 t v : promoted t -> signed t = true -> in_range t v ->
  - 2 ^ 63 <= v < 2 ^ 63.
Proof.
  intros Ht Hs Hv. apply i64_in_range. apply (in_range_widen t); [reflexivity | | exact Hv].
  rewrite Hs. destruct Ht as [-> | ->]; discriminate.
Qed.

Lemma srange k a : 0 <= k ->
  (- 2 ^ k <= a < 2 ^ k <-> Z.shiftr a k = 0 \/ Z.shiftr a k = -1).
Proof.
  intros Hk. rewrite Z.shiftr_div_pow2 by exact Hk.
  pose proof (Z.pow_pos_nonneg 2 k ltac:(lia) Hk) as HP.
  generalize dependent (2 ^ k). intros P HP.
  split; intros H; Z.div_mod_to_equations; nia.
Qed.

Lemma urange k a : 0 <= k -> (0 <= a < 2 ^ k <-> Z.shiftr a k = 0).
Proof.
  intros Hk. rewrite Z.shiftr_div_pow2 by exact Hk.
  pose proof (Z.pow_pos_nonneg 2 k ltac:(lia) Hk) as HP.
  generalize dependent (2 ^ k). intros P HP.
  split; intros H; Z.div_mod_to_equations; nia.
Qed.

Lemma quot_range M x y : - M <= x < M -> y <> 0 -> ~ (x = - M /\ y = -1) ->
  - M <= Z.quot x y < M.
Proof.
  intros Hx Hy Hex.
  destruct (Z.eq_dec y 1) as [-> | H1]; [rewrite Z.quot_1_r; lia | ].
  destruct (Z.eq_dec y (-1)) as [-> | H2].
  { change (-1) with (- (1)). rewrite Z.quot_opp_r, Z.quot_1_r by lia. lia. }
  destruct (Z.eq_dec x 0) as [-> | H0]; [rewrite Z.quot_0_l; lia | ].
  (* |y| >= 2, so |x / y| = |x| / |y| < |x| <= M *)
  assert (Hq : Z.abs (Z.quot x y) < M); [ | apply Z.abs_lt in Hq; lia].
  rewrite <- Z.quot_abs by exact Hy.
  apply Z.lt_le_trans with (Z.abs x); [ | apply Z.abs_le; lia].
  apply Z.quot_lt; [apply Z.abs_pos, H0 | lia].
Qed.

Lemma bitop_in_range t x y : promoted t -> in_range t x -> in_range t y ->
  in_range t (Z.land x y) /\ in_range t (Z.lor x y) /\ in_range t (Z.lxor x y).
Proof.
  intros Ht Hx Hy. apply in_range_iff in Hx. apply in_range_iff in Hy.
  assert (0 <= width t - 1 /\ 0 <= width t) as [Hk Hk']
    by (destruct (promoted_width t Ht); lia).
  rewrite !in_range_iff. destruct (signed t).
  - apply srange in Hx, Hy; try exact Hk. rewrite !srange by exact Hk.
    rewrite Z.shiftr_land, Z.shiftr_lor, Z.shiftr_lxor.
    destruct Hx as [-> | ->], Hy as [-> | ->]; cbn; auto.
  - apply urange in Hx, Hy; try exact Hk'. rewrite !urange by exact Hk'.
    rewrite Z.shiftr_land, Z.shiftr_lor, Z.shiftr_lxor, Hx, Hy. auto.
Qed.

(* the guard is the one c_arith applies: INT_MIN / -1 is the only overflow *)
Lemma quot_rem_in_range t x y : in_range t x -> in_range t y -> y <> 0 ->
  signed t && (x =? tmin t) && (y =? -1) = false ->
  in_range t (Z.quot x y) /\ in_range t (Z.rem x y).
Proof.
  intros Hx Hy Hy0 Hg. apply in_range_iff in Hx. apply in_range_iff in Hy.
  rewrite !in_range_iff. unfold tmin in Hg. destruct (signed t); cbn [andb] in Hg.
  - split; [ | pose proof (Z.rem_bound_abs x y Hy0); lia].
    apply quot_range; try assumption.
    intros [-> ->]. rewrite Z.eqb_refl in Hg. discriminate Hg.
  - pose proof (Z.rem_bound_pos x y ltac:(lia) ltac:(lia)).
    pose proof (Z.quot_pos x y ltac:(lia) ltac:(lia)).
    pose proof (Z.quot_le_upper_bound x y x ltac:(lia) ltac:(nia)). lia.
Qed.

Lemma norm_spec t z t' r : norm t z = Some (t', r) ->
  t' = t /\ in_range t r /\ (signed t = true -> r = z).
Proof.
  unfold norm. destruct (signed t) eqn:Hs.
  - destruct (fits t z) eqn:Hf; [ | discriminate]. intros [= <- <-].
    split; [reflexivity | split; [apply fits_spec, Hf | reflexivity]].
  - intros [= <- <-]. split; [reflexivity | split; [apply mod_in_range, Hs | discriminate]].
Qed.

Lemma c_un_spec o t v t' r : c_un o t v = Some (t', r) ->
  t' = t /\ (in_range t v -> in_range t r) /\ (signed t = true -> r = ideal_un o v).
Proof.
  destruct o; cbn [c_un ideal_un].
  - intros [= <- <-]. auto.
  - intros H. apply norm_spec in H. tauto.
  - intros [= <- <-]. split; [reflexivity | split; [ | intros ->; reflexivity]].
    rewrite !in_range_iff. destruct (signed t); lia.
Qed.

Lemma c_arith_spec o t x y t' r : c_arith o t x y = Some (t', r) ->
  t' = t /\ (promoted t -> in_range t x -> in_range t y -> in_range t r) /\
  (signed t = true -> ideal_bin o x y = Some r).
Proof.
  destruct o; cbn [c_arith ideal_bin]; try discriminate.
  (* left are + - *, then / %, then & | ^ *)
  1-3: intros H; apply norm_spec in H; destruct H as (-> & Hr & He);
    (split; [reflexivity | split; [auto | intros Hs; rewrite (He Hs); reflexivity]]).
  1-2: destruct (Z.eqb_spec y 0) as [Hy0 | Hy0]; [discriminate | ];
    destruct (signed t && (x =? tmin t) && (y =? -1)) eqn:Hg; [discriminate | ];
    intros [= <- <-]; (split; [reflexivity | split; [ | reflexivity]]);
    intros _ Hx Hy; apply (quot_rem_in_range t x y Hx Hy Hy0 Hg).
  all: intros [= <- <-]; (split; [reflexivity | split; [ | reflexivity]]);
    intros Ht Hx Hy; apply (bitop_in_range t x y Ht Hx Hy).
Qed.

Lemma shr_in_range t a n : 0 <= n -> in_range t a -> in_range t (a / 2 ^ n).
Proof.
  unfold in_range. intros Hn Ha.
  assert (tmin t <= 0 <= tmax t)
    by (unfold tmin, tmax in *; destruct (signed t); lia).
  pose proof (Z.pow_pos_nonneg 2 n ltac:(lia) Hn) as HP.
  generalize dependent (2 ^ n). intros P HP.
  Z.div_mod_to_equations. nia.
Qed.

Lemma c_shift_spec o t a n t' r : is_shift o = true ->
  c_shift o t a n = Some (t', r) ->
  0 <= n < width t /\ t' = t /\ (in_range t a -> in_range t r) /\
  (signed t = true -> ideal_bin o a n = Some r).
Proof.
  intros Ho. unfold c_shift.
  destruct o; try discriminate Ho; cbn [ideal_bin];
    destruct (Z.ltb_spec n 0) as [Hn0 | Hn0];
    destruct (Z.leb_spec (width t) n) as [Hnw | Hnw]; cbn [orb]; try discriminate;
    intros H; (split; [lia | revert H]).
  - destruct (signed t) eqn:Hs.
    + destruct (a <? 0); [discriminate | ].
      destruct (fits t (a * 2 ^ n)) eqn:Hf; [ | discriminate]. intros [= <- <-].
      split; [reflexivity | split; [intros _; apply fits_spec, Hf | reflexivity]].
    + intros [= <- <-].
      split; [reflexivity | split; [intros _; apply mod_in_range, Hs | discriminate]].
  - intros [= <- <-]. split; [reflexivity | split; [apply shr_in_range, Hn0 | reflexivity]].
Qed.

Lemma uac_either (P : ctype -> Prop) a b : P a -> P b -> P (uac a b).
Proof.
  intros Ha Hb. unfold uac.
  destruct (Bool.eqb (signed a) (signed b)), (signed a),
    (bits a <=? bits b)%N, (bits b <=? bits a)%N; assumption.
Qed.

Lemma uac_signed_wider ta tb : signed (uac ta tb) = true ->
  forall s, s = ta \/ s = tb ->
  (if signed s then bits s <= bits (uac ta tb) else bits s < bits (uac ta tb))%N.
Proof.
  unfold uac. destruct (signed ta) eqn:Hsa, (signed tb) eqn:Hsb; cbn [Bool.eqb];
    destruct (_ <=? _)%N eqn:Hl; intros Hs s [-> | ->]; rewrite ?Hsa, ?Hsb;
    try congruence; rewrite ?N.leb_le, ?N.leb_gt in Hl; lia.
Qed.

Lemma conv_signed t z : signed t = true -> conv t z = z.
Proof. intros Hs. unfold conv. rewrite Hs. reflexivity. Qed.

Lemma conv_uac ta tb v : in_range ta v \/ in_range tb v ->
  in_range (uac ta tb) (conv (uac ta tb) v).
Proof.
  intros Hv. unfold conv.
  (* to an unsigned common type the value is reduced; to a signed one it is
     unchanged, and a value of that type because the operand's type is narrower *)
  destruct (signed (uac ta tb)) eqn:Hs; [ | apply mod_in_range, Hs].
  destruct Hv as [Hv | Hv]; (apply in_range_widen with (3 := Hv); [exact Hs | ]);
    apply uac_signed_wider; auto.
Qed.

Lemma c_bin_spec o ta va tb vb t' r : c_bin o ta va tb vb = Some (t', r) ->
  t' = (if is_shift o then ta else uac ta tb) /\
  (is_shift o = true -> 0 <= vb < width ta) /\
  (promoted ta -> promoted tb -> in_range ta va -> in_range tb vb -> in_range t' r) /\
  (signed ta = true -> signed tb = true -> ideal_bin o va vb = Some r).
Proof.
  unfold c_bin. destruct (is_shift o) eqn:Ho; intros H.
  - apply (c_shift_spec _ _ _ _ _ _ Ho) in H. destruct H as (Hn & -> & Hr & He). auto.
  - apply c_arith_spec in H. destruct H as (-> & Hr & He).
    split; [reflexivity | split; [discriminate | split]].
    + intros Hta Htb Hva Hvb.
      apply Hr; [apply uac_either; assumption | apply conv_uac; auto ..].
    + intros Hsa Hsb.
      assert (Hsu : signed (uac ta tb) = true) by (apply uac_either; assumption).
      rewrite !(conv_signed _ _ Hsu) in He. exact (He Hsu).
Qed.

Lemma first_fit_spec cs v t :
  first_fit cs v = Some t -> In t cs /\ fits t v = true.
Proof.
  induction cs as [ | c cs IH]; cbn [first_fit]; [discriminate | ].
  destruct (fits c v) eqn:Hf.
  - intros [= <-]. split; [left; reflexivity | exact Hf].
  - intros H. apply IH in H. split; [right | ]; tauto.
Qed.

Lemma lit_candidates_promoted r u l : Forall promoted (lit_candidates r u l).
Proof.
  destruct r, u, l; cbn; repeat (apply Forall_cons; [unfold promoted; cbn; auto | ]);
    apply Forall_nil.
Qed.

Lemma lit_type_spec r v u l t :
  lit_type r v u l = Some t -> promoted t /\ 0 <= v /\ in_range t v.
Proof.
  unfold lit_type. destruct (Z.ltb_spec v 0) as [Hneg | Hpos]; [discriminate | ].
  intros H. apply first_fit_spec in H. destruct H as [Hi Hf].
  split; [ | split; [exact Hpos | apply fits_spec, Hf]].
  pose proof (lit_candidates_promoted r u l) as Hc. rewrite Forall_forall in Hc. auto.
Qed.

Lemma c_eval_ind (P : expr -> ctype -> Z -> Prop) :
  (forall r z u l t, lit_type r z u l = Some t -> P (Lit r z u l) t z) ->
  (forall o a ta va t v, c_eval a = Some (ta, va) -> P a ta va ->
     c_un o ta va = Some (t, v) -> P (Un o a) t v) ->
  (forall o a b ta va tb vb t v,
     c_eval a = Some (ta, va) -> P a ta va ->
     c_eval b = Some (tb, vb) -> P b tb vb ->
     c_bin o ta va tb vb = Some (t, v) -> P (Bin o a b) t v) ->
  forall e t v, c_eval e = Some (t, v) -> P e t v.
Proof.
  intros HL HU HB.
  induction e as [r z u l | o a IHa | o a IHa b IHb]; intros t v; cbn [c_eval].
  - destruct (lit_type r z u l) eqn:Hl; [ | discriminate].
    intros [= <- <-]. apply HL, Hl.
  - destruct (c_eval a) as [[ta va] | ] eqn:Ha; [ | discriminate]. apply HU; auto.
  - destruct (c_eval a) as [[ta va] | ] eqn:Ha; [ | discriminate].
    destruct (c_eval b) as [[tb vb] | ] eqn:Hb; [ | discriminate]. apply HB; auto.
Qed.

Lemma c_eval_in_range : forall e t v,
  c_eval e = Some (t, v) -> promoted t /\ in_range t v.
Proof.
  apply c_eval_ind.
  - intros r z u l t H. apply lit_type_spec in H. tauto.
  - intros o a ta va t v _ [Ht Hv] H. apply c_un_spec in H.
    destruct H as (-> & Hr & _). auto.
  - intros o a b ta va tb vb t v _ [Hta Hva] _ [Htb Hvb] H.
    apply c_bin_spec in H. destruct H as (-> & _ & Hr & _).
    split; [ | auto]. destruct (is_shift o); [ | apply uac_either]; assumption.
Qed.

Lemma in_i64_spec z : in_i64 z = true <-> - 2 ^ 63 <= z < 2 ^ 63.
Proof. unfold in_i64. rewrite andb_true_iff, Z.leb_le, Z.ltb_lt. tauto. Qed.

Lemma wrap64_id z : - 2 ^ 63 <= z < 2 ^ 63 -> wrap64 z = z.
Proof. intros H. unfold wrap64. rewrite Z.mod_small; lia. Qed.

Lemma to_i64_small v : v < 2 ^ 63 -> to_i64 v = v.
Proof.
  intros H. unfold to_i64. destruct (Z.ltb_spec v (2 ^ 63)) as [Hlt | Hge]; lia.
Qed.

Lemma rs_lit_small z : 0 <= z < 2 ^ 63 -> rs_lit z = RsInt z.
Proof.
  intros Hz. unfold rs_lit.
  destruct (Z.ltb_spec z 0) as [Hz0 | Hz0]; [lia | ].
  destruct (Z.leb_spec (2 ^ 64) z) as [Hz64 | Hz64]; [lia | ]. cbn [orb].
  rewrite to_i64_small by lia. reflexivity.
Qed.

Lemma shamt_small b : 0 <= b < 64 -> shamt b = b.
Proof.
  intros H. unfold shamt. rewrite (Z.mod_small b) by lia.
  change 63 with (Z.ones 6). rewrite Z.land_ones by lia.
  apply Z.mod_small. change (2 ^ 6) with 64. lia.
Qed.

Lemma rs_un_exact o v :
  - 2 ^ 63 <= ideal_un o v < 2 ^ 63 -> rs_un o v = ideal_un o v.
Proof.
  destruct o; cbn [ideal_un rs_un]; [reflexivity | apply wrap64_id | reflexivity].
Qed.

Lemma rs_bin_exact o x y r :
  ideal_bin o x y = Some r -> - 2 ^ 63 <= r < 2 ^ 63 ->
  (is_shift o = true -> 0 <= y < 64) ->
  rs_bin o x y = RsInt r.
Proof.
  intros Hi Hr Hs.
  destruct o; cbn [ideal_bin rs_bin is_shift] in Hi, Hs |- *;
    try (destruct (y =? 0); [discriminate Hi | ]);
    try (destruct (y <? 0); [discriminate Hi | ];
         rewrite shamt_small by (apply Hs; reflexivity));
    injection Hi as <-; rewrite ?wrap64_id by exact Hr; reflexivity.
Qed.

Lemma rs_bin_panic o x y :
  rs_bin o x y = RsPanic -> (o = BDiv \/ o = BRem) /\ y = 0.
Proof.
  destruct o; cbn [rs_bin]; try discriminate;
    (destruct (Z.eqb_spec y 0) as [Hy | Hy]; [auto | discriminate]).
Qed.

Lemma wrap64_range z : - 2 ^ 63 <= wrap64 z < 2 ^ 63.
Proof.
  unfold wrap64.
  pose proof (Z.mod_pos_bound (z + 2 ^ 63) (2 ^ 64) ltac:(lia)). lia.
Qed.

Lemma rs_lit_in_i64 z v : rs_lit z = RsInt v -> - 2 ^ 63 <= v < 2 ^ 63.
Proof.
  unfold rs_lit.
  destruct (Z.ltb_spec z 0) as [Hz0 | Hz0];
    destruct (Z.leb_spec (2 ^ 64) z) as [Hz64 | Hz64]; cbn [orb]; try discriminate.
  intros [= <-]. unfold to_i64. destruct (Z.ltb_spec z (2 ^ 63)) as [Hlt | Hge]; lia.
Qed.

Lemma rs_un_in_i64 o x :
  - 2 ^ 63 <= x < 2 ^ 63 -> - 2 ^ 63 <= rs_un o x < 2 ^ 63.
Proof.
  intros Hx. destruct o; cbn [rs_un]; [exact Hx | apply wrap64_range | lia].
Qed.

Lemma rs_bin_in_i64 o x y r :
  - 2 ^ 63 <= x < 2 ^ 63 -> - 2 ^ 63 <= y < 2 ^ 63 ->
  rs_bin o x y = RsInt r -> - 2 ^ 63 <= r < 2 ^ 63.
Proof.
  intros Hx Hy. apply i64_in_range in Hx. apply i64_in_range in Hy.
  destruct (bitop_in_range t_long x y) as (Hand & Hor & Hxor);
    [right; reflexivity | exact Hx | exact Hy | ].
  assert (Hshr : in_range t_long (x / 2 ^ shamt y)).
  { apply shr_in_range; [apply Z.land_nonneg; right; lia | exact Hx]. }
  destruct o; cbn [rs_bin]; try (destruct (y =? 0); [discriminate | ]);
    intros [= <-]; try apply wrap64_range; apply i64_in_range; assumption.
Qed.

Lemma benign_un_spec o t v : benign_un o t v = true <->
  exists t', c_un o t v = Some (t', ideal_un o v) /\
             - 2 ^ 63 <= ideal_un o v < 2 ^ 63.
Proof.
  unfold benign_un. destruct (c_un o t v) as [[t' r] | ].
  - rewrite andb_true_iff, Z.eqb_eq, in_i64_spec. split.
    + intros [<- Hr]. exists t'. auto.
    + intros (t'' & [= <- <-] & Hr). auto.
  - split; [discriminate | intros (t' & H & _); discriminate H].
Qed.

Lemma benign_bin_spec o ta va tb vb : benign_bin o ta va tb vb = true <->
  (is_shift o = true \/
   conv (uac ta tb) va = va /\ conv (uac ta tb) vb = vb) /\
  exists t' r, c_bin o ta va tb vb = Some (t', r) /\
               ideal_bin o va vb = Some r /\ - 2 ^ 63 <= r < 2 ^ 63.
Proof.
  unfold benign_bin.
  rewrite andb_true_iff, orb_true_iff, andb_true_iff, !Z.eqb_eq.
  apply and_iff_compat_l.
  destruct (c_bin o ta va tb vb) as [[t' r] | ];
    [destruct (ideal_bin o va vb) as [i | ] | ].
  - rewrite andb_true_iff, Z.eqb_eq, in_i64_spec. split.
    + intros [-> Hr]. exists t', r. auto.
    + intros (t'' & r' & [= <- <-] & [= ->] & Hr). auto.
  - split; [discriminate | intros (? & ? & _ & H & _); discriminate H].
  - split; [discriminate | intros (? & ? & H & _); discriminate H].
Qed.

Lemma benign_Lit r v u l : benign (Lit r v u l) = true <->
  (exists t, lit_type r v u l = Some t) /\ - 2 ^ 63 <= v < 2 ^ 63.
Proof.
  cbn [benign]. destruct (lit_type r v u l) as [t | ].
  - rewrite in_i64_spec. split; [eauto | tauto].
  - split; [discriminate | intros [[t H] _]; discriminate H].
Qed.

Lemma benign_Un o a : benign (Un o a) = true <->
  benign a = true /\
  exists t v, c_eval a = Some (t, v) /\ benign_un o t v = true.
Proof.
  cbn [benign]. rewrite andb_true_iff. apply and_iff_compat_l.
  destruct (c_eval a) as [[t v] | ].
  - split; [eauto | intros (t' & v' & [= <- <-] & H); exact H].
  - split; [discriminate | intros (? & ? & H & _); discriminate H].
Qed.

Lemma benign_Bin o a b : benign (Bin o a b) = true <->
  benign a = true /\ benign b = true /\
  exists ta va tb vb, c_eval a = Some (ta, va) /\ c_eval b = Some (tb, vb) /\
                      benign_bin o ta va tb vb = true.
Proof.
  cbn [benign]. rewrite !andb_true_iff, and_assoc. do 2 apply and_iff_compat_l.
  destruct (c_eval a) as [[ta va] | ]; [destruct (c_eval b) as [[tb vb] | ] | ].
  - split; [intros H; exists ta, va, tb, vb; auto | ].
    intros (? & ? & ? & ? & [= <- <-] & [= <- <-] & H). exact H.
  - split; [discriminate | intros (? & ? & ? & ? & _ & H & _); discriminate H].
  - split; [discriminate | intros (? & ? & ? & ? & H & _); discriminate H].
Qed.

Lemma benign_inv e : benign e = true ->
  exists t v, c_eval e = Some (t, v) /\ ideal e = Some v /\
              rs_eval e = RsInt v /\ - 2 ^ 63 <= v < 2 ^ 63.
Proof.
  induction e as [r z u l | o a IHa | o a IHa b IHb]; intros H;
    cbn [c_eval ideal rs_eval].
  - apply benign_Lit in H. destruct H as [[t Hl] Hz]. rewrite Hl.
    apply lit_type_spec in Hl. destruct Hl as (_ & Hz0 & _).
    exists t, z. rewrite rs_lit_small by lia. auto.
  - apply benign_Un in H. destruct H as (Ha & t & v & Hc & Hu).
    specialize (IHa Ha). rewrite Hc in IHa.
    destruct IHa as (? & ? & [= <- <-] & Hi & Hr & _).
    apply benign_un_spec in Hu. destruct Hu as (t' & Hu & Hv).
    rewrite Hc, Hi, Hr, Hu, (rs_un_exact o v Hv). exists t', (ideal_un o v). auto.
  - apply benign_Bin in H.
    destruct H as (Ha & Hb & ta & va & tb & vb & Hca & Hcb & Hs).
    specialize (IHa Ha). rewrite Hca in IHa.
    destruct IHa as (? & ? & [= <- <-] & Hia & Hra & _).
    specialize (IHb Hb). rewrite Hcb in IHb.
    destruct IHb as (? & ? & [= <- <-] & Hib & Hrb & _).
    apply benign_bin_spec in Hs. destruct Hs as (_ & t & v & Hc & Hi & Hv).
    rewrite Hca, Hcb, Hia, Hib, Hra, Hrb, Hc, Hi. exists t, v.
    repeat split; try apply Hv. apply rs_bin_exact; [exact Hi | exact Hv | ].
    (* C defines a shift only by less than the width of the left operand,
       so cexpr's masking of the amount to 6 bits changes nothing *)
    intros Hsh. destruct (c_bin_spec _ _ _ _ _ _ _ Hc) as (_ & Hn & _).
    specialize (Hn Hsh). destruct (promoted_width ta (proj1 (c_eval_in_range _ _ _ Hca))); lia.
Qed.

Lemma benign_value e t v : benign e = true -> c_eval e = Some (t, v) ->
  ideal e = Some v /\ rs_eval e = RsInt v /\ - 2 ^ 63 <= v < 2 ^ 63.
Proof.
  intros Hb Hc. pose proof (benign_inv e Hb) as H. rewrite Hc in H.
  destruct H as (? & ? & [= <- <-] & H). exact H.
Qed.

Lemma faithful_partial : forall e t v,
  benign e = true -> c_eval e = Some (t, v) -> rs_eval e = RsInt v.
Proof. intros e t v Hb Hc. apply (benign_value e t v Hb Hc). Qed.

Lemma signed_only_signed : forall e t v,
  c_eval e = Some (t, v) -> signed_only e = true -> signed t = true.
Proof.
  apply (c_eval_ind (fun e t _ => signed_only e = true -> signed t = true));
    cbn [signed_only].
  - intros r z u l t ->. auto.
  - intros o a ta va t v _ IH Hu Hso. apply c_un_spec in Hu.
    destruct Hu as [-> _]. auto.
  - intros o a b ta va tb vb t v _ IHa _ IHb Hc Hso.
    apply andb_true_iff in Hso. apply c_bin_spec in Hc. destruct Hc as [-> _].
    destruct (is_shift o); [ | apply uac_either]; tauto.
Qed.

Lemma signed_only_i64 e t v :
  c_eval e = Some (t, v) -> signed_only e = true -> - 2 ^ 63 <= v < 2 ^ 63.
Proof.
  intros Hc Hso. destruct (c_eval_in_range e t v Hc) as [Ht Hv].
  exact (signed_in_i64 t v Ht (signed_only_signed e t v Hc Hso) Hv).
Qed.

(* Signed overflow is undefined in C, so on signed types every defined step
   is exact, and no conversion changes a value. *)
Lemma signed_only_defined_benign : forall e t v,
  c_eval e = Some (t, v) -> signed_only e = true -> benign e = true.
Proof.
  apply (c_eval_ind (fun e _ _ => signed_only e = true -> benign e = true)).
  - intros r z u l t Hl Hso. apply benign_Lit. split; [eauto | ].
    apply (signed_only_i64 (Lit r z u l) t); [cbn [c_eval]; rewrite Hl | ]; auto.
  - intros o a ta va t v Ha IH Hu Hso.
    assert (Hv : - 2 ^ 63 <= v < 2 ^ 63).
    { apply (signed_only_i64 (Un o a) t); [cbn [c_eval]; rewrite Ha | ]; auto. }
    cbn [signed_only] in Hso. pose proof (signed_only_signed _ _ _ Ha Hso) as Hs.
    destruct (c_un_spec _ _ _ _ _ Hu) as (_ & _ & He). rewrite (He Hs) in Hu, Hv.
    apply benign_Un. split; [auto | ]. exists ta, va. split; [exact Ha | ].
    apply benign_un_spec. eauto.
  - intros o a b ta va tb vb t v Ha IHa Hb IHb Hc Hso.
    assert (Hv : - 2 ^ 63 <= v < 2 ^ 63).
    { apply (signed_only_i64 (Bin o a b) t); [cbn [c_eval]; rewrite Ha, Hb | ]; auto. }
    cbn [signed_only] in Hso. apply andb_true_iff in Hso. destruct Hso as [Hsoa Hsob].
    pose proof (signed_only_signed _ _ _ Ha Hsoa) as Hsa.
    pose proof (signed_only_signed _ _ _ Hb Hsob) as Hsb.
    apply benign_Bin. split; [auto | split; [auto | ]].
    exists ta, va, tb, vb. split; [exact Ha | split; [exact Hb | ]].
    apply benign_bin_spec. split.
    + right. rewrite !conv_signed by (apply uac_either; assumption). auto.
    + destruct (c_bin_spec _ _ _ _ _ _ _ Hc) as (_ & _ & _ & He). exists t, v. auto.
Qed.

Lemma signed_only_faithful : forall e t v,
  signed_only e = true -> c_eval e = Some (t, v) -> rs_eval e = RsInt v.
Proof.
  intros e t v Hso Hc. apply (faithful_partial e t v); [ | exact Hc].
  exact (signed_only_defined_benign e t v Hc Hso).
Qed.

Lemma faithful_refuted :
  (exists e t v v',
     c_eval e = Some (t, v) /\ rs_eval e = RsInt v' /\ v <> v') /\
  (* ~0u *)
  (c_eval (Un UNot (Lit Dec 0 true false)) = Some (t_uint, 4294967295) /\
   rs_eval (Un UNot (Lit Dec 0 true false)) = RsInt (-1)) /\
  (* 0xFFFFFFFF + 1 *)
  (c_eval (Bin BAdd (Lit Hex 4294967295 false false) (Lit Dec 1 false false))
     = Some (t_uint, 0) /\
   rs_eval (Bin BAdd (Lit Hex 4294967295 false false) (Lit Dec 1 false false))
     = RsInt 4294967296) /\
  (* -1 / 2u *)
  (c_eval (Bin BDiv (Un UNeg (Lit Dec 1 false false)) (Lit Dec 2 true false))
     = Some (t_uint, 2147483647) /\
   rs_eval (Bin BDiv (Un UNeg (Lit Dec 1 false false)) (Lit Dec 2 true false))
     = RsInt 0).
Proof.
  split.
  - exists (Un UNot (Lit Dec 0 true false)), t_uint, 4294967295, (-1).
    vm_compute. repeat split. discriminate.
  - vm_compute. repeat split.
Qed.

Lemma pow2_31 : 2 ^ 31 = 2147483648. Proof. reflexivity. Qed.
Lemma pow2_32 : 2 ^ 32 = 4294967296. Proof. reflexivity. Qed.
Lemma pow2_63 : 2 ^ 63 = 9223372036854775808. Proof. reflexivity. Qed.
Lemma pow2_64 : 2 ^ 64 = 18446744073709551616. Proof. reflexivity. Qed.
