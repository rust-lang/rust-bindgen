(* C02 — the theory of the struct layout model (Model.v).
   The loop over the members is cut at the list of fields it emits: the tracker's part is that this
   list is a closed form ([fields]), rustc's part is where that closed form puts the members. *)
From Coq Require Import NArith List Bool Lia.
From BG Require Import C02.Model.
Import ListNotations.
Open Scope N_scope.

Lemma mod0_mul : forall x a, 0 < a -> x mod a = 0 -> x = (x / a) * a.
Proof. intros x a Ha Hx. rewrite N.mul_comm. apply N.div_exact; [lia|exact Hx]. Qed.

Lemma add_mod0 : forall x y a, 0 < a -> x mod a = 0 -> y mod a = 0 -> (x + y) mod a = 0.
Proof. intros x y a Ha. rewrite !N.mod_divide by lia. apply N.divide_add_r. Qed.

Lemma sub_mod0 : forall x y a, 0 < a -> x mod a = 0 -> y mod a = 0 -> (x - y) mod a = 0.
Proof. intros x y a Ha. rewrite !N.mod_divide by lia. apply N.divide_sub_r. Qed.

Lemma mod0_trans : forall x a b, 0 < a -> 0 < b -> a mod b = 0 -> x mod a = 0 -> x mod b = 0.
Proof. intros x a b Ha Hb. rewrite !N.mod_divide by lia. apply N.divide_trans. Qed.

Lemma mod0_le : forall a b, 0 < a -> 0 < b -> a mod b = 0 -> b <= a.
Proof. intros a b Ha Hb. rewrite N.mod_divide by lia. now apply N.divide_pos_le. Qed.

Lemma multiple_unique : forall a x y,
  0 < a -> x mod a = 0 -> y mod a = 0 -> x < y + a -> y < x + a -> x = y.
Proof.
  intros a x y Ha Hx Hy Hxy Hyx.
  rewrite (mod0_mul x a Ha Hx) in *. rewrite (mod0_mul y a Ha Hy) in *.
  assert (Hq : x / a = y / a) by nia. now rewrite Hq.
Qed.

Lemma round_up_bounds : forall s a, 0 < a ->
  s <= round_up s a /\ (round_up s a) mod a = 0 /\ round_up s a < s + a.
Proof.
  intros s a Ha. unfold round_up.
  pose proof (N.mul_div_le (s + (a - 1)) a) as Hl.
  pose proof (N.mul_succ_div_gt (s + (a - 1)) a) as Hg.
  repeat split; [lia | apply N.mod_mul; lia | lia].
Qed.

Lemma align_to_least_multiple : forall s a, 0 < a ->
  s <= align_to s a /\ (align_to s a) mod a = 0 /\ align_to s a < s + a.
Proof.
  intros s a Ha. unfold align_to.
  destruct (N.eqb_spec a 0) as [E|_]; [lia|].
  destruct (N.eqb_spec (s mod a) 0) as [E|E%N.neq_0_lt_0].
  - repeat split; [apply N.le_refl | exact E | now apply N.lt_add_pos_r].
  - pose proof (N.mod_lt s a) as Hl.
    pose proof (N.div_mod' s a) as Hd.
    split; [lia|split; [|lia]].
    replace (s + a - s mod a) with ((s / a + 1) * a) by lia.
    apply N.mod_mul. lia.
Qed.

Lemma align_to_least : forall s a m, 0 < a -> s <= m -> m mod a = 0 -> align_to s a <= m.
Proof.
  intros s a m Ha Hsm Hm.
  destruct (align_to_least_multiple s a Ha) as (H1 & H2 & H3).
  destruct (N.le_gt_cases (align_to s a) m) as [|Hgt]; [assumption|].
  apply N.eq_le_incl, (multiple_unique a); auto; lia.
Qed.

Lemma align_to_round_up : forall s a, 0 < a -> align_to s a = round_up s a.
Proof.
  intros s a Ha.
  destruct (align_to_least_multiple s a Ha) as (H1 & H2 & H3).
  destruct (round_up_bounds s a Ha) as (H4 & H5 & H6).
  apply (multiple_unique a); auto; lia.
Qed.

Lemma align_to_zero : forall s, align_to s 0 = s.
Proof. reflexivity. Qed.

Lemma align_to_fix : forall s a, s mod a = 0 -> align_to s a = s.
Proof.
  intros s a H. unfold align_to. rewrite H.
  now destruct (a =? 0).
Qed.

Lemma round_up_fix : forall s a, 0 < a -> s mod a = 0 -> round_up s a = s.
Proof. intros s a Ha H. rewrite <- align_to_round_up by exact Ha. now apply align_to_fix. Qed.

Lemma round_up_1 : forall s, round_up s 1 = s.
Proof. intros s. apply round_up_fix; [lia|]. apply N.mod_1_r. Qed.

Lemma round_up_0 : forall a, round_up 0 a = 0.
Proof.
  intros a. destruct (N.eq_dec a 0) as [->|Hne]; [reflexivity|].
  apply round_up_fix; [lia|]. now apply N.mod_0_l.
Qed.

Lemma blob_size_round_up : forall s a,
  blob_size s a =
    if N.max a 1 <=? 4 then (s / N.max a 1) * N.max a 1 else round_up s (N.max a 1).
Proof.
  intros s a. unfold blob_size. destruct (N.max a 1 <=? 4); [reflexivity|].
  apply align_to_round_up. lia.
Qed.

Lemma blob_exact : forall s a, 0 < a -> s mod a = 0 ->
  blob_size s a = s /\ blob_align s a = a.
Proof.
  intros s a Ha Hs. unfold blob_size, blob_align.
  replace (N.max a 1) with a by lia. split; [|reflexivity].
  destruct (a <=? 4).
  - symmetry. now apply mod0_mul.
  - now apply align_to_fix.
Qed.

(* blob(size, 0), as used by add_tail_padding, is `[u8; size]` *)
Lemma blob_align0 : forall s, blob_size s 0 = s /\ blob_align s 0 = 1.
Proof.
  intros s. split; [|reflexivity]. rewrite blob_size_round_up. cbn. now rewrite N.div_1_r, N.mul_1_r.
Qed.

Lemma blob_field_exact : forall g al, 0 < al -> g mod al = 0 -> blob_field (g, al) = RField g al.
Proof.
  intros g al Ha Hg. unfold blob_field. cbn [fst snd].
  now destruct (blob_exact g al Ha Hg) as [-> ->].
Qed.

Lemma blob_field_bytes : forall g, blob_field (g, 0) = RField g 1.
Proof.
  intros g. unfold blob_field. cbn [fst snd]. now destruct (blob_align0 g) as [-> ->].
Qed.

Lemma for_size_loop_exits : forall fuel p size k,
  p < 2 ^ (k + N.of_nat fuel) ->
  let r := for_size_loop fuel p size (2 ^ k) in
  (size mod r =? 0) && (r <=? p) = false.
Proof.
  induction fuel as [|f IH]; intros p size k Hp; cbn [for_size_loop].
  - cbn zeta. rewrite N.add_0_r in Hp.
    destruct (N.leb_spec (2 ^ k) p) as [H|H]; [lia|]. apply andb_false_r.
  - destruct ((size mod 2 ^ k =? 0) && (2 ^ k <=? p)) eqn:E; [|exact E].
    replace (2 ^ k * 2) with (2 ^ (k + 1)) by (rewrite N.pow_add_r; reflexivity).
    apply IH. replace (k + 1 + N.of_nat f) with (k + N.of_nat (S f)) by lia. exact Hp.
Qed.

Lemma for_size_internal_fuel_ok : forall p size,
  let r := for_size_loop (S (N.to_nat (N.log2 p))) p size 2 in
  (size mod r =? 0) && (r <=? p) = false.
Proof.
  intros p size. change 2 with (2 ^ 1) at 1. apply for_size_loop_exits.
  rewrite Nat2N.inj_succ, N2Nat.id.
  destruct (N.eq_dec p 0) as [->|Hp]; [reflexivity|].
  pose proof (N.log2_spec p ltac:(lia)) as [_ H].
  replace (1 + N.succ (N.log2 p)) with (N.succ (N.succ (N.log2 p))) by lia.
  rewrite (N.pow_succ_r' 2 (N.succ (N.log2 p))). lia.
Qed.

Lemma pow2_pos : forall a, is_pow2 a = true -> 0 < a.
Proof.
  intros a H. unfold is_pow2 in H. apply andb_prop in H as [H _].
  now apply N.ltb_lt in H.
Qed.

Lemma pow2_eq : forall a, is_pow2 a = true -> a = 2 ^ N.log2 a.
Proof.
  intros a H. unfold is_pow2 in H. apply andb_prop in H as [_ H]. now apply N.eqb_eq in H.
Qed.

Lemma pow2_divides : forall r a, is_pow2 r = true -> is_pow2 a = true -> r <= a -> a mod r = 0.
Proof.
  intros r a Hr Ha Hle.
  pose proof (pow2_pos r Hr) as Hr0.
  pose proof (N.log2_le_mono r a Hle) as Hl.
  rewrite (pow2_eq a Ha), (pow2_eq r Hr).
  replace (N.log2 a) with ((N.log2 a - N.log2 r) + N.log2 r) by lia.
  rewrite N.pow_add_r. apply N.mod_mul.
  rewrite <- (pow2_eq r Hr). lia.
Qed.

Lemma pow2_gt8_mod8 : forall a, is_pow2 a = true -> 8 < a -> a mod 8 = 0.
Proof. intros a H Ha. apply pow2_divides; [reflexivity|exact H|lia]. Qed.

Lemma pow2_gt8_ge16 : forall a, is_pow2 a = true -> 8 < a -> 16 <= a.
Proof.
  intros a Hp H. pose proof (mod0_mul a 8 ltac:(lia) (pow2_gt8_mod8 a Hp H)). lia.
Qed.

(* [member_offsets] by recursion on the fields, from the end [cur] of those before *)
Fixpoint moffs (cur : N) (fs : list (bool * rfield)) : list N :=
  match fs with
  | [] => []
  | (b, f) :: r =>
      let o := round_up cur (rf_align f) in
      (if b then [o] else []) ++ moffs (o + rf_size f) r
  end.

Lemma member_offsets_moffs : forall fs, member_offsets fs = moffs 0 fs.
Proof.
  intros fs. unfold member_offsets, rust_offsets. generalize 0.
  induction fs as [|[b f] r IH]; intros cur; [reflexivity|].
  cbn [map fst snd rust_offsets_from combine filter moffs].
  destruct b; cbn [map snd app]; now rewrite IH.
Qed.

Lemma rust_end_app : forall l1 l2 cur,
  rust_end_from cur (l1 ++ l2) = rust_end_from (rust_end_from cur l1) l2.
Proof.
  induction l1 as [|f r IH]; intros l2 cur; [reflexivity|].
  cbn [app rust_end_from]. apply IH.
Qed.

Lemma rust_max_align_cons : forall f l,
  rust_max_align (f :: l) = N.max (rf_align f) (rust_max_align l).
Proof. reflexivity. Qed.

Lemma rust_max_align_nil : rust_max_align [] = 1.
Proof. reflexivity. Qed.

Lemma fold_max_ge : forall (A : Type) (f : A -> N) b l,
  b <= fold_right (fun x acc => N.max (f x) acc) b l.
Proof. intros A f b. induction l as [|x r IH]; cbn [fold_right]; lia. Qed.

Lemma rust_max_align_ge1 : forall l, 1 <= rust_max_align l.
Proof. intros l. apply fold_max_ge. Qed.

Lemma rust_max_align_app : forall l1 l2,
  rust_max_align (l1 ++ l2) = N.max (rust_max_align l1) (rust_max_align l2).
Proof.
  induction l1 as [|f r IH]; intros l2; cbn [app].
  - pose proof (rust_max_align_ge1 l2). rewrite rust_max_align_nil. lia.
  - rewrite !rust_max_align_cons, IH. apply N.max_assoc.
Qed.

Lemma moffs_app : forall l1 l2 cur,
  moffs cur (l1 ++ l2) = moffs cur l1 ++ moffs (rust_end_from cur (map snd l1)) l2.
Proof.
  induction l1 as [|[b f] r IH]; intros l2 cur; [reflexivity|].
  cbn [app moffs map snd rust_end_from]. rewrite IH. now rewrite app_assoc.
Qed.

Lemma moffs_opt_blob : forall o cur, moffs cur (opt_blob o) = [].
Proof. intros [l|] cur; reflexivity. Qed.

Lemma member_ok_elim : forall m, member_ok m = true ->
  is_pow2 (m_align m) = true /\ 0 < m_size m /\ m_size m mod m_align m = 0.
Proof.
  intros m H. unfold member_ok in H.
  apply andb_prop in H as [H H3]. apply andb_prop in H as [H1 H2].
  apply N.ltb_lt in H2. apply N.eqb_eq in H3. auto.
Qed.

Lemma natural_cons : forall off m r,
  forallb member_ok (m :: r) = true -> offsets_natural off (m :: r) = true ->
  is_pow2 (m_align m) = true /\ 0 < m_align m /\ m_size m mod m_align m = 0 /\
  m_offset m = align_to off (m_align m) /\
  forallb member_ok r = true /\ offsets_natural (m_offset m + m_size m) r = true.
Proof.
  intros off m r Hok Hnat. cbn [forallb offsets_natural] in *.
  apply andb_prop in Hok as [Hm Hok]. apply andb_prop in Hnat as [Ho Hnat].
  destruct (member_ok_elim m Hm) as (Hp & _ & Hsa). pose proof (pow2_pos _ Hp) as Ha.
  apply N.eqb_eq in Ho. rewrite <- align_to_round_up in Ho by exact Ha. auto 10.
Qed.

Lemma c_max_align_ge1 : forall ms, 1 <= c_max_align ms.
Proof. intros ms. apply fold_max_ge. Qed.

Lemma c_natural_elim : forall cs ca ms, c_natural cs ca ms = true ->
  forallb member_ok ms = true /\ offsets_natural 0 ms = true /\ ms <> [] /\
  ca = c_max_align ms /\ cs = round_up (c_end 0 ms) ca.
Proof.
  intros cs ca ms H. unfold c_natural in H.
  apply andb_prop in H as [H Hpos]. apply andb_prop in H as [H Hcs].
  apply andb_prop in H as [H Hca]. apply andb_prop in H as [Hok Hoff].
  apply N.ltb_lt in Hpos. apply N.eqb_eq in Hcs, Hca.
  repeat split; auto.
  intros ->. cbn [c_end] in Hcs. rewrite round_up_0 in Hcs. lia.
Qed.

(* A member together with the layout the tracker is told for it (saw_field) and the alignment
   of the Rust type written for it.  [emit_items] is the loop over the members and [finish] what
   follows it, for both of the model's loops: in [emit_members] the told layout varies and the
   Rust type has the C alignment, in Lower.emit_members_l it is the other way round. *)
Record item := { it_m : member; it_told : N * N; it_r : N }.

Fixpoint emit_items (env : tenv) (st : tstate) (xs : list item)
  : tstate * list (bool * rfield) :=
  match xs with
  | [] => (st, [])
  | x :: r =>
      let '(st1, pad) := step env st (SawField (fst (it_told x)) (snd (it_told x))
                                               (Some (8 * m_offset (it_m x)))) in
      let '(st2, fs) := emit_items env st1 r in
      (st2, opt_blob pad ++ (true, RField (m_size (it_m x)) (it_r x)) :: fs)
  end.

Definition of_tagged (p : member * (N * N)) : item :=
  {| it_m := fst p; it_told := snd p; it_r := m_align (fst p) |}.

Lemma emit_members_items : forall env tms st,
  emit_members env st tms = emit_items env st (map of_tagged tms).
Proof.
  intros env. induction tms as [|[m t] r IH]; intros st; [reflexivity|].
  cbn [map of_tagged emit_members emit_items it_m it_told it_r fst snd].
  destruct (step env st _) as [st1 pad]. now rewrite IH.
Qed.

Definition finish (env : tenv) (cs ca : N) (p : tstate * list (bool * rfield))
  : list (bool * rfield) * option N * bool :=
  let '(st1, fs) := p in
  let '(st2, tail) := step env st1 (AddTailPadding cs ca) in
  let '(st3, pad) := step env st2 (PadStruct cs ca) in
  let req := requires_explicit_align st3 (cs, ca) in
  (fs ++ opt_blob tail ++ opt_blob pad,
   if req then (if ca =? 1 then None else Some ca) else None,
   req && (ca =? 1)).

Lemma emit_with_items : forall env cs ca tms,
  emit_with env cs ca tms = finish env cs ca (emit_items env init_state (map of_tagged tms)).
Proof. intros. rewrite <- emit_members_items. reflexivity. Qed.

Lemma finish_offsets : forall env cs ca st fs,
  member_offsets (fst (fst (finish env cs ca (st, fs)))) = moffs 0 fs.
Proof.
  intros env cs ca st fs. unfold finish.
  destruct (step env st _) as [st2 tail]. destruct (step env st2 _) as [st3 pad]. cbn [fst].
  now rewrite member_offsets_moffs, !moffs_app, !moffs_opt_blob, app_nil_r.
Qed.

(* between two plain members: the tracker is exactly at the end of the previous
   member, which is a multiple of that member's alignment, and no bit-field is open *)
Definition Inv (st : tstate) (off : N) : Prop :=
  latest_offset st = off /\
  last_field_was_bitfield st = false /\
  match latest_field_layout st with
  | None => True
  | Some (_, la) => align_to off la = off
  end.

Lemma Inv_init : Inv init_state 0.
Proof. repeat split. Qed.

Lemma align_to_latest_field_Inv : forall env st off s a,
  Inv st off -> is_packed env = false ->
  align_to_latest_field env st s a = (st, false).
Proof.
  intros env st off s a (Ho & Hb & Hl) Hp. unfold align_to_latest_field.
  rewrite Hp, Hb. destruct (latest_field_layout st) as [[ls la]|]; [|reflexivity].
  cbn [andb]. unfold padding_bytes. rewrite Ho, Hl, N.sub_diag, N.add_0_r, <- Ho.
  now destruct st.
Qed.

(* `padding_align` and `padding_layout` of saw_field_with_layout as functions of the gap:
   [off] the end of the previous member, [o] the member's offset, [gap] their difference,
   [ta] the alignment the tracker is told *)
Definition pad_align (force legacy : bool) (off ta gap : N) : N :=
  if force then 1
  else if legacy then N.min ta 8
  else if (1 <? N.min ta 8)
          && (negb (off mod N.min ta 8 =? 0) || negb (gap mod N.min ta 8 =? 0))
       then 1
       else N.min ta 8.

Definition pad_of (force legacy : bool) (off ta o : N) : option (N * N) :=
  if (force || (ta <=? o - off) || (8 <? ta)) && negb (o - off =? 0)
  then Some (o - off, pad_align force legacy off ta (o - off))
  else None.

Lemma pad_align_le : forall force legacy off ta gap,
  0 < ta -> 0 < pad_align force legacy off ta gap <= ta.
Proof.
  intros force legacy off ta gap Ht. unfold pad_align.
  assert (H1 : 0 < 1 <= ta) by lia.
  assert (H8 : 0 < N.min ta 8 <= ta) by (split; [now apply N.min_glb_lt|apply N.le_min_l]).
  destruct force; [exact H1|]. destruct legacy; [exact H8|]. now destruct (_ && _).
Qed.

(* one saw_field between plain members of a struct that is not packed: [ta] need not be the
   member's alignment, only the member's offset and size are multiples of it *)
Lemma saw_field_natural : forall env st off s ta o,
  is_packed env = false -> is_union env = false ->
  Inv st off -> 0 < ta -> off <= o -> o mod ta = 0 -> s mod ta = 0 ->
  forall st' pad,
  step env st (SawField s ta (Some (8 * o))) = (st', pad) ->
  pad = pad_of (force_explicit_padding env) (legacy_padding_align env) off ta o /\
  Inv st' (o + s) /\
  max_field_align st' = N.max (max_field_align st) ta /\
  last_field_was_flexible_array st' = last_field_was_flexible_array st.
Proof.
  intros env st off s ta o Hpk Hun HI Hta Hle Hota Hsta st' pad.
  cbn [step]. unfold saw_field_with_layout.
  rewrite (align_to_latest_field_Inv _ st off s ta HI Hpk).
  destruct HI as (Hlo & Hbf & Hl).
  (* the padding in front of the field: the offset clang reports and the tracker's own
     rounding agree *)
  set (g := if latest_offset st <? 8 * o / 8 then _ else _).
  assert (Hg : g = o - off).
  { unfold g, padding_bytes. rewrite Hpk, Hun, Hlo, (N.mul_comm 8), N.div_mul by lia.
    destruct (N.eqb_spec ta 0) as [E|_]; [lia|]. cbn [orb negb].
    destruct (N.ltb_spec off o) as [|Hge]; [reflexivity|].
    assert (o = off) as -> by lia. now rewrite (align_to_fix off ta Hota). }
  clearbody g. subst g.
  rewrite Hpk, Hun. unfold MAX_GUARANTEED_ALIGN, with_offset.
  cbn [orb negb latest_offset padding_count latest_field_layout max_field_align
       last_field_was_bitfield last_field_was_flexible_array].
  rewrite Hlo, N.add_sub. replace (off + (o - off)) with o by lia.
  assert (Hinv : align_to (o + s) ta = o + s) by (apply align_to_fix; now apply add_mod0).
  unfold pad_of.
  fold (pad_align (force_explicit_padding env) (legacy_padding_align env) off ta (o - off)).
  unfold padding_field.
  destruct ((force_explicit_padding env || (ta <=? o - off) || (8 <? ta))
            && negb (o - off =? 0));
    intros H; injection H as <- <-;
    cbn [latest_offset padding_count latest_field_layout max_field_align
         last_field_was_bitfield last_field_was_flexible_array snd];
    repeat split; try exact Hinv.
  pose proof (pad_align_le (force_explicit_padding env) (legacy_padding_align env)
                off ta (o - off) Hta).
  lia.
Qed.

Definition tail_of (force : bool) (cs e : N) : option (N * N) :=
  if force && negb (e =? cs) then Some (cs - e, 0) else None.

Lemma add_tail_natural : forall env st cs ca st1 tail,
  is_union env = false -> last_field_was_flexible_array st = false ->
  step env st (AddTailPadding cs ca) = (st1, tail) ->
  tail = tail_of (force_explicit_padding env) cs (latest_offset st) /\
  (latest_offset st1 = latest_offset st \/ latest_offset st1 = cs) /\
  last_field_was_bitfield st1 = last_field_was_bitfield st /\
  max_field_align st1 = max_field_align st.
Proof.
  intros env st cs ca st1 tail Hun Hfa. cbn [step]. unfold tail_of. rewrite Hun, Hfa.
  destruct (force_explicit_padding env); cbn [negb andb];
    [destruct (latest_offset st =? cs); cbn [negb]|];
    intros H; injection H as <- <-;
    cbn [padding_field latest_offset last_field_was_bitfield max_field_align snd];
    repeat split; auto.
  apply N.max_0_r.
Qed.

Lemma pad_struct_none : forall env st size align,
  latest_offset st <= size -> size - latest_offset st < align ->
  last_field_was_bitfield st = false ->
  step env st (PadStruct size align) = (st, None).
Proof.
  intros env st size align Hle Hlt Hbf. cbn [step]. rewrite Hbf.
  destruct (N.ltb_spec size (latest_offset st)); [lia|].
  destruct (size - latest_offset st =? 0); [reflexivity|].
  destruct (N.leb_spec align (size - latest_offset st)); [lia|]. reflexivity.
Qed.

Lemma requires_explicit_align_eq : forall st cs ca,
  requires_explicit_align st (cs, ca)
  = (16 <=? max_field_align st) || (max_field_align st <? ca).
Proof.
  intros st cs ca. unfold requires_explicit_align. cbn [repr_align andb snd orb].
  destruct (16 <=? max_field_align st); [reflexivity|]. cbn [orb].
  rewrite N.ltb_antisym. now destruct (ca <=? max_field_align st).
Qed.

(* the alignment of the emitted type, whatever requires_explicit_align answers: [A] is the
   alignment the fields give, [m] what the tracker has seen *)
Lemma explicit_align_ok : forall m ca A,
  A <= ca -> 1 <= A -> (m < 16 -> m <= A) ->
  N.max A (match (if (16 <=? m) || (m <? ca) then Some ca else None) with
           | Some a => a | None => 1 end) = ca.
Proof.
  intros m ca A HA H1 Hm.
  destruct (N.leb_spec 16 m); [cbn [orb]; lia|].
  destruct (N.ltb_spec m ca); cbn [orb]; lia.
Qed.

(* After plain members that end at [e], less than the alignment short of the size.  The tracker
   has seen an alignment between 1 and the struct's, so that repr(align) is never asked for a
   struct of alignment 1 and the `layout.align == 1 => packed` branch is not taken. *)
Lemma finish_natural : forall env cs ca st e fs,
  is_union env = false -> Inv st e -> last_field_was_flexible_array st = false ->
  e <= cs -> cs < e + ca -> 1 <= max_field_align st <= ca ->
  finish env cs ca (st, fs) =
    (fs ++ opt_blob (tail_of (force_explicit_padding env) cs e),
     (if (16 <=? max_field_align st) || (max_field_align st <? ca) then Some ca else None),
     false).
Proof.
  intros env cs ca st e fs Hun (Hlo & Hbf & _) Hfa Hle Hlt Hm. unfold finish.
  destruct (step env st (AddTailPadding cs ca)) as [st2 tail] eqn:E2.
  destruct (add_tail_natural env st cs ca st2 tail Hun Hfa E2) as (-> & Hlo2 & Hbf2 & Hmf).
  rewrite (pad_struct_none env st2 cs ca)
    by (try congruence; destruct Hlo2 as [H|H]; rewrite H; lia).
  rewrite requires_explicit_align_eq, Hmf, Hlo. cbn [opt_blob]. rewrite app_nil_r.
  destruct ((16 <=? max_field_align st) || (max_field_align st <? ca)) eqn:Er; [|reflexivity].
  replace (ca =? 1) with false; [reflexivity|]. symmetry. apply N.eqb_neq.
  apply orb_prop in Er as [H|H]; [apply N.leb_le in H|apply N.ltb_lt in H]; lia.
Qed.

Fixpoint fields (force legacy : bool) (off : N) (xs : list item) : list (bool * rfield) :=
  match xs with
  | [] => []
  | x :: r =>
      opt_blob (pad_of force legacy off (snd (it_told x)) (m_offset (it_m x)))
      ++ (true, RField (m_size (it_m x)) (it_r x))
      :: fields force legacy (m_offset (it_m x) + m_size (it_m x)) r
  end.

(* the strictest alignment the tracker is told (max_field_align starts from 0) *)
Definition maxt (xs : list item) : N :=
  fold_right (fun x acc => N.max (snd (it_told x)) acc) 0 xs.

(* the Rust alignment may be below the C alignment only where the tracker is told 16 or more:
   padding is then forced in front of the member, and repr(align) written *)
Definition item_ok (x : item) : Prop :=
  fst (it_told x) = m_size (it_m x) /\
  0 < snd (it_told x) /\ m_align (it_m x) mod snd (it_told x) = 0 /\
  0 < it_r x /\ m_align (it_m x) mod it_r x = 0 /\
  (it_r x = m_align (it_m x) \/ 16 <= snd (it_told x)).

Lemma emit_items_fields : forall env,
  is_packed env = false -> is_union env = false ->
  forall xs st off,
  Inv st off -> forallb member_ok (map it_m xs) = true ->
  offsets_natural off (map it_m xs) = true -> Forall item_ok xs ->
  forall st' fs, emit_items env st xs = (st', fs) ->
  fs = fields (force_explicit_padding env) (legacy_padding_align env) off xs /\
  Inv st' (c_end off (map it_m xs)) /\
  max_field_align st' = N.max (max_field_align st) (maxt xs) /\
  last_field_was_flexible_array st' = last_field_was_flexible_array st.
Proof.
  intros env Hpk Hun.
  induction xs as [|x r IH]; intros st off HI Hok Hnat Hit st' fs.
  - cbn [emit_items fields map c_end maxt fold_right]. intros H. injection H as <- <-.
    rewrite N.max_0_r. now split; [|split; [exact HI|split]].
  - cbn [map] in Hok, Hnat.
    destruct (natural_cons _ _ _ Hok Hnat) as (_ & Ha & Hsa & Ho & Hok' & Hnat').
    apply Forall_cons_iff in Hit as [(Hts & Hta & Hat & _) Hit'].
    destruct (align_to_least_multiple off _ Ha) as (H1 & H2 & _). rewrite <- Ho in H1, H2.
    cbn [emit_items]. rewrite Hts.
    destruct (step env st _) as [st1 pad] eqn:Es.
    destruct (saw_field_natural env st off _ _ _ Hpk Hun HI Hta H1
                (mod0_trans _ _ _ Ha Hta Hat H2) (mod0_trans _ _ _ Ha Hta Hat Hsa) st1 pad Es)
      as (-> & HI1 & Hm1 & Hf1).
    destruct (emit_items env st1 r) as [st2 fs2] eqn:Ee.
    destruct (IH st1 _ HI1 Hok' Hnat' Hit' st2 fs2 Ee) as (-> & J1 & J2 & J3).
    intros H. injection H as <- <-. cbn [fields map c_end maxt fold_right]. fold (maxt r).
    split; [reflexivity|]. split; [exact J1|]. split; [|congruence].
    rewrite J2, Hm1. symmetry. apply N.max_assoc.
Qed.

Lemma tail_rust : forall force cs e ca, 0 < ca -> cs = round_up e ca ->
  let l := map snd (opt_blob (tail_of force cs e)) in
  round_up (rust_end_from e l) ca = cs /\ rust_max_align l = 1.
Proof.
  intros force cs e ca Hca Hcs. destruct (round_up_bounds e ca Hca) as (B1 & B2 & _).
  rewrite <- Hcs in *. unfold tail_of.
  destruct (force && negb (e =? cs)); cbn [opt_blob map snd rust_end_from]; [|now split].
  rewrite blob_field_bytes. cbn [rf_align rf_size]. rewrite round_up_1.
  replace (e + (cs - e)) with cs by lia. split; [now apply round_up_fix|reflexivity].
Qed.

(* [cur] the end of the previous member, [a] and [o] the member's alignment and offset *)
Definition gap_ok (cur a o : N) : bool := (a <=? 8) || (o =? cur) || (cur mod 8 =? 0).

Lemma gaps_ok_from_cons : forall cur m r,
  gaps_ok_from cur (m :: r)
  = gap_ok cur (m_align m) (m_offset m) && gaps_ok_from (m_offset m + m_size m) r.
Proof. reflexivity. Qed.

Lemma pad_align_fits : forall force legacy off ta gap,
  0 < ta -> force || negb legacy = true ->
  let al := pad_align force legacy off ta gap in off mod al = 0 /\ gap mod al = 0.
Proof.
  intros force legacy off ta gap Hta Hc. unfold pad_align.
  destruct force; [split; apply N.mod_1_r|]. destruct legacy; [discriminate|].
  destruct (N.ltb_spec 1 (N.min ta 8)) as [_|Hle]; cbn [andb].
  - destruct (N.eqb_spec (off mod N.min ta 8) 0) as [E1|_]; cbn [negb orb];
      [|split; apply N.mod_1_r].
    destruct (N.eqb_spec (gap mod N.min ta 8) 0) as [E2|_]; cbn [negb];
      [now split|split; apply N.mod_1_r].
  - replace (N.min ta 8) with 1 by lia. split; apply N.mod_1_r.
Qed.

(* When saw_field_with_layout emits a padding blob in front of a member at its natural offset
   [o], the blob starts at, and is as long as, a multiple of its alignment: always under the
   current rule, under the legacy rule when [gap_ok]. *)
Lemma pad_of_fits : forall force legacy off a ta o g al,
  is_pow2 a = true -> o = align_to off a -> 0 < ta <= a ->
  force || negb legacy = true \/ (ta = a /\ gap_ok off a o = true) ->
  pad_of force legacy off ta o = Some (g, al) ->
  off + g = o /\ 0 < al <= ta /\ off mod al = 0 /\ g mod al = 0.
Proof.
  intros force legacy off a ta o g al Hp Ho Hta Hc. pose proof (pow2_pos a Hp) as Ha.
  unfold pad_of.
  destruct ((force || (ta <=? o - off) || (8 <? ta)) && negb (o - off =? 0)) eqn:Hneed;
    [|discriminate].
  intros E. injection E as <- <-.
  destruct (align_to_least_multiple off a Ha) as (H1 & H2 & H3). rewrite <- Ho in H1, H2, H3.
  split; [lia|]. split; [apply pad_align_le, Hta|].
  destruct Hc as [Hc|(-> & Hc)]; [now apply pad_align_fits|].
  destruct force; [now apply pad_align_fits|]. destruct legacy; [|now apply pad_align_fits].
  (* legacy rule: padding is needed though the gap is shorter than [a], so 8 < a and the blob
     is 8-aligned; it does not start at [o], so it starts at a multiple of 8 *)
  apply andb_prop in Hneed as [Hneed Hgap]. apply negb_true_iff, N.eqb_neq in Hgap.
  cbn [orb] in Hneed. unfold pad_align, gap_ok in *.
  destruct (N.leb_spec a (o - off)); [lia|]. apply N.ltb_lt in Hneed.
  destruct (N.leb_spec a 8); [lia|]. destruct (N.eqb_spec o off); [lia|].
  cbn [orb] in Hc. apply N.eqb_eq in Hc. replace (N.min a 8) with 8 by lia.
  split; [exact Hc|]. apply sub_mod0; [reflexivity| |exact Hc].
  apply (mod0_trans o a 8); [exact Ha|reflexivity|now apply pow2_gt8_mod8|exact H2].
Qed.

(* In front of a member of C alignment [a] at its natural offset [o], of which the tracker is
   told alignment [ta] and whose Rust type has alignment [r]: rustc puts the member at [o].
   Either a padding blob fills the gap exactly, or there is none and [r] rounds up to [o] as
   [a] does; a smaller [r] is harmless only where padding is forced ([8 < ta]). *)
Lemma pad_lands : forall force legacy off a ta r o,
  is_pow2 a = true -> o = align_to off a -> 0 < ta <= a -> 0 < r -> a mod r = 0 ->
  r = a \/ 8 < ta ->
  force || negb legacy = true \/ (ta = a /\ gap_ok off a o = true) ->
  let l := map snd (opt_blob (pad_of force legacy off ta o)) in
  round_up (rust_end_from off l) r = o /\ rust_max_align l <= a.
Proof.
  intros force legacy off a ta r o Hp Ho Hta Hr Har Hra Hc. pose proof (pow2_pos a Hp) as Ha.
  destruct (align_to_least_multiple off a Ha) as (H1 & H2 & H3). rewrite <- Ho in H1, H2, H3.
  assert (Hor : o mod r = 0) by (apply (mod0_trans o a r); auto).
  destruct (pad_of force legacy off ta o) as [[g al]|] eqn:E;
    cbn [opt_blob map snd rust_end_from].
  - destruct (pad_of_fits _ _ _ _ _ _ _ _ Hp Ho Hta Hc E) as (Hg & Hal & Hf & Hgm).
    rewrite (blob_field_exact g al (proj1 Hal) Hgm), rust_max_align_cons, rust_max_align_nil.
    cbn [rf_align rf_size]. rewrite (round_up_fix off al (proj1 Hal) Hf), Hg.
    split; [now apply round_up_fix|lia].
  - rewrite rust_max_align_nil. split; [|lia].
    destruct Hra as [->|Hgt]; [rewrite <- align_to_round_up by exact Ha; now symmetry|].
    (* padding is forced, so there is no gap *)
    unfold pad_of in E. destruct (N.ltb_spec 8 ta); [|lia].
    rewrite orb_true_r in E. cbn [andb] in E.
    destruct (N.eqb_spec (o - off) 0); [|discriminate]. replace off with o by lia.
    now apply round_up_fix.
Qed.

(* under the legacy rule a member that violates the side condition lands at a larger offset:
   its padding blob is 8-aligned and does not start at a multiple of 8 *)
Lemma legacy_pad_overshoots : forall off a o,
  is_pow2 a = true -> o = align_to off a -> gap_ok off a o = false ->
  let l := map snd (opt_blob (pad_of false true off a o)) in
  o < round_up (rust_end_from off l) a.
Proof.
  intros off a o Hp Ho Hc.
  pose proof (pow2_pos a Hp) as Ha.
  destruct (align_to_least_multiple off a Ha) as (H1 & H2 & H3). rewrite <- Ho in *.
  unfold gap_ok in Hc.
  apply orb_false_elim in Hc as [Hc H8]. apply orb_false_elim in Hc as [Hle Heq].
  apply N.leb_gt in Hle. apply N.eqb_neq in Heq. apply N.eqb_neq in H8.
  unfold pad_of, pad_align. cbn [orb].
  destruct (N.ltb_spec 8 a) as [_|]; [|lia]. rewrite orb_true_r.
  destruct (N.eqb_spec (o - off) 0) as [|_]; [lia|]. cbn [andb negb].
  replace (N.min a 8) with 8 by lia.
  cbn [opt_blob map snd blob_field fst rust_end_from rf_align rf_size].
  unfold blob_align. change (N.max 8 1) with 8.
  destruct (round_up_bounds off 8 ltac:(lia)) as (R1 & R2 & R3).
  assert (R4 : round_up off 8 <> off) by (intros E; rewrite E in R2; contradiction).
  rewrite blob_size_round_up. change (N.max 8 1) with 8. change (8 <=? 4) with false. cbn iota.
  destruct (round_up_bounds (o - off) 8 ltac:(lia)) as (G1 & _ & _).
  destruct (round_up_bounds (round_up off 8 + round_up (o - off) 8) a Ha) as (E1 & _ & _).
  lia.
Qed.

(* what the legacy padding_align rule needs: the tracker is told each member's own alignment,
   and the gaps are as [gaps_ok_from] says *)
Fixpoint legacy_ok (cur : N) (xs : list item) : Prop :=
  match xs with
  | [] => True
  | x :: r =>
      (snd (it_told x) = m_align (it_m x) /\
       gap_ok cur (m_align (it_m x)) (m_offset (it_m x)) = true) /\
      legacy_ok (m_offset (it_m x) + m_size (it_m x)) r
  end.

Lemma fields_rust : forall force legacy xs off,
  forallb member_ok (map it_m xs) = true ->
  offsets_natural off (map it_m xs) = true -> Forall item_ok xs ->
  force || negb legacy = true \/ legacy_ok off xs ->
  let fs := fields force legacy off xs in
  moffs off fs = map m_offset (map it_m xs) /\
  rust_end_from off (map snd fs) = c_end off (map it_m xs) /\
  rust_max_align (map snd fs) <= c_max_align (map it_m xs) /\
  (maxt xs < 16 -> c_max_align (map it_m xs) <= rust_max_align (map snd fs)).
Proof.
  intros force legacy. induction xs as [|x r IH]; intros off Hok Hnat Hit Hc; cbn zeta.
  - cbn [fields map moffs rust_end_from c_end]. now repeat split.
  - cbn [map] in Hok, Hnat.
    destruct (natural_cons _ _ _ Hok Hnat) as (Hp & Ha & Hsa & Ho & Hok' & Hnat').
    apply Forall_cons_iff in Hit as [(_ & Hta & Hat & Hr & Har & Hra) Hit'].
    destruct (IH _ Hok' Hnat' Hit') as (J4 & J5 & J6 & J7);
      [destruct Hc as [Hc|[_ Hc]]; auto|]. cbn zeta in *.
    pose proof (mod0_le _ _ Ha Hta Hat) as Hle. pose proof (mod0_le _ _ Ha Hr Har) as Hrle.
    destruct (pad_lands force legacy off _ (snd (it_told x)) (it_r x) _ Hp Ho (conj Hta Hle)
                Hr Har) as [P1 P2];
      [destruct Hra; [now left|right; lia]|destruct Hc as [Hc|[Hc _]]; auto|].
    cbn zeta in P1, P2.
    cbn [fields map c_end maxt fold_right]. fold (maxt r).
    rewrite moffs_app, moffs_opt_blob, !map_app, rust_end_app, rust_max_align_app.
    cbn [app moffs map snd rust_end_from rf_align rf_size].
    rewrite rust_max_align_cons, P1, J4, J5. cbn [rf_align].
    change (c_max_align (it_m x :: map it_m r))
      with (N.max (m_align (it_m x)) (c_max_align (map it_m r))).
    repeat split.
    + apply N.max_lub; [now apply N.max_le_iff; left|now apply N.max_le_compat].
    + intros [Ht1 Ht2]%N.max_lub_lt_iff. destruct Hra as [->|H16]; [|now apply N.lt_nge in Ht1].
      apply N.max_le_iff. right. apply N.max_le_compat_l, J7, Ht2.
Qed.

Lemma maxt_bounds : forall xs,
  forallb member_ok (map it_m xs) = true -> Forall item_ok xs ->
  maxt xs <= c_max_align (map it_m xs) /\ (xs <> [] -> 1 <= maxt xs).
Proof.
  induction xs as [|x r IH]; intros Hok Hit.
  - split; [apply N.le_0_l|congruence].
  - cbn [map forallb] in Hok. apply andb_prop in Hok as [Hm Hok].
    destruct (member_ok_elim _ Hm) as (Hp & _ & _). pose proof (pow2_pos _ Hp) as Ha.
    apply Forall_cons_iff in Hit as [(_ & Hta & Hat & _) Hit'].
    destruct (IH Hok Hit') as (I1 & _). pose proof (mod0_le _ _ Ha Hta Hat).
    unfold maxt, c_max_align in *. cbn [map fold_right]. split; intros; lia.
Qed.

(* Natural members in any environment of a struct that is not packed: offsets, size and
   alignment agree with C, `packed` is not forced, and repr(align) is written when the tracker
   has seen an alignment of 16 or more, or less than the struct's. *)
Theorem layout_items : forall env cs ca xs,
  is_packed env = false -> is_union env = false ->
  c_natural cs ca (map it_m xs) = true -> Forall item_ok xs ->
  force_explicit_padding env || negb (legacy_padding_align env) = true \/ legacy_ok 0 xs ->
  let r := finish env cs ca (emit_items env init_state xs) in
  (let '(fs, ea) := fst r in
   member_offsets fs = map m_offset (map it_m xs) /\
   rust_size_align ea (map snd fs) = (cs, ca)) /\
  snd r = false /\
  snd (fst r) = (if (16 <=? maxt xs) || (maxt xs <? ca) then Some ca else None).
Proof.
  intros env cs ca xs Hpk Hun Hnat Hit Hc.
  destruct (c_natural_elim _ _ _ Hnat) as (Hok & Hoff & Hne & Hca & Hcs).
  assert (Hca0 : 0 < ca) by (pose proof (c_max_align_ge1 (map it_m xs)); lia).
  destruct (round_up_bounds (c_end 0 (map it_m xs)) ca Hca0) as (B1 & _ & B3).
  rewrite <- Hcs in *.
  destruct (maxt_bounds xs Hok Hit) as (Mt1 & Mt2). rewrite <- Hca in Mt1.
  assert (Hm1 : 1 <= maxt xs) by (apply Mt2; intros ->; now apply Hne).
  destruct (emit_items env init_state xs) as [st1 fs1] eqn:Ee.
  destruct (emit_items_fields env Hpk Hun xs init_state 0 Inv_init Hok Hoff Hit st1 fs1 Ee)
    as (-> & J1 & J2 & J3).
  cbn [init_state max_field_align] in J2. rewrite N.max_0_l in J2.
  destruct (fields_rust _ _ xs 0 Hok Hoff Hit Hc) as (R1 & R2 & R3 & R4).
  cbn zeta in R1, R2, R3, R4. rewrite <- Hca in R3, R4.
  rewrite (finish_natural env cs ca st1 _ _ Hun J1 J3 B1 B3), J2 by now rewrite J2.
  destruct (tail_rust (force_explicit_padding env) cs _ ca Hca0 Hcs) as [T1 T2].
  cbn zeta in T1, T2. cbn [fst snd].
  repeat split.
  - now rewrite member_offsets_moffs, moffs_app, moffs_opt_blob, app_nil_r.
  - unfold rust_size_align. rewrite map_app, rust_max_align_app, rust_end_app, R2, T2.
    rewrite (N.max_l _ 1) by apply rust_max_align_ge1.
    rewrite explicit_align_ok, T1; [reflexivity|exact R3|apply rust_max_align_ge1|].
    intros Hlt. now transitivity ca; [|apply R4].
Qed.

Definition plain_item (m : member) : item := of_tagged (plain_tag m).

Lemma emit_full_items : forall env cs ca ms,
  emit_full env cs ca ms = finish env cs ca (emit_items env init_state (map plain_item ms)).
Proof. intros. unfold emit_full. now rewrite emit_with_items, map_map. Qed.

Lemma it_m_plain : forall ms, map it_m (map plain_item ms) = ms.
Proof. intros ms. rewrite map_map. apply map_id. Qed.

Lemma items_ok_plain : forall ms,
  forallb member_ok ms = true -> Forall item_ok (map plain_item ms).
Proof.
  intros ms Hok. apply Forall_map, Forall_forall. intros m Hm.
  apply (proj1 (forallb_forall _ _) Hok), member_ok_elim in Hm as (Ha%pow2_pos & _).
  unfold item_ok. cbn [plain_item of_tagged plain_tag plain_view it_m it_told it_r fst snd].
  rewrite N.mod_same by lia. repeat split; auto.
Qed.

Lemma legacy_ok_plain : forall ms cur,
  gaps_ok_from cur ms = true -> legacy_ok cur (map plain_item ms).
Proof.
  induction ms as [|m r IH]; intros cur Hg; [exact I|].
  rewrite gaps_ok_from_cons in Hg. apply andb_prop in Hg as [G1 G2].
  split; [split; [reflexivity|exact G1]|apply IH, G2].
Qed.

Lemma maxt_plain : forall ms, forallb member_ok ms = true -> ms <> [] ->
  maxt (map plain_item ms) = c_max_align ms.
Proof.
  induction ms as [|m r IH]; intros Hok Hne; [contradiction|].
  apply andb_prop in Hok as [Hm Hok].
  destruct (member_ok_elim m Hm) as (Hp & _ & _). pose proof (pow2_pos _ Hp).
  unfold maxt, c_max_align in *.
  cbn [map fold_right plain_item of_tagged plain_tag plain_view it_told snd] in *.
  destruct r as [|m' r']; [cbn [map fold_right]; lia|]. now rewrite IH.
Qed.

(* plain members, in any of the three settings in which the padding blobs fit; the second
   conjunct: the `layout.align == 1 => packed` branch is not taken *)
Theorem layout_plain : forall env cs ca ms,
  is_packed env = false -> is_union env = false ->
  c_natural cs ca ms = true ->
  force_explicit_padding env || negb (legacy_padding_align env) = true \/ gaps_ok ms = true ->
  (let '(fs, ea) := emit env cs ca ms in
   member_offsets fs = map m_offset ms /\
   rust_size_align ea (map snd fs) = (cs, ca)) /\
  snd (emit_full env cs ca ms) = false /\
  snd (emit env cs ca ms) = (if 16 <=? ca then Some ca else None).
Proof.
  intros env cs ca ms Hpk Hun Hnat Hc. unfold emit. rewrite emit_full_items.
  destruct (c_natural_elim _ _ _ Hnat) as (Hok & _ & Hne & Hca & _).
  pose proof (layout_items env cs ca (map plain_item ms) Hpk Hun) as L.
  rewrite it_m_plain, (maxt_plain ms Hok Hne), <- Hca, N.ltb_irrefl, orb_false_r in L.
  apply (L Hnat (items_ok_plain ms Hok)).
  destruct Hc as [Hc|Hc]; [now left|right; now apply legacy_ok_plain].
Qed.

Lemma emit_offsets_fields : forall env cs ca ms,
  is_packed env = false -> is_union env = false ->
  forallb member_ok ms = true -> offsets_natural 0 ms = true ->
  member_offsets (fst (emit env cs ca ms))
  = moffs 0 (fields (force_explicit_padding env) (legacy_padding_align env) 0
               (map plain_item ms)).
Proof.
  intros env cs ca ms Hpk Hun Hok Hoff. unfold emit. rewrite emit_full_items.
  pose proof (emit_items_fields env Hpk Hun (map plain_item ms) init_state 0 Inv_init) as T.
  rewrite it_m_plain in T.
  destruct (emit_items env init_state (map plain_item ms)) as [st1 fs1].
  rewrite finish_offsets.
  now destruct (T Hok Hoff (items_ok_plain ms Hok) st1 fs1 eq_refl) as [-> _].
Qed.

(* the converse for the legacy rule: the members are at their C offsets only if the gaps are
   as [gaps_ok] says *)
Lemma fields_legacy_exact : forall ms off,
  forallb member_ok ms = true -> offsets_natural off ms = true ->
  moffs off (fields false true off (map plain_item ms)) = map m_offset ms ->
  gaps_ok_from off ms = true.
Proof.
  induction ms as [|m r IH]; intros off Hok Hnat; [reflexivity|].
  destruct (natural_cons _ _ _ Hok Hnat) as (Hp & Ha & Hsa & Ho & Hok' & Hnat').
  cbn [map plain_item of_tagged plain_tag plain_view fields it_m it_told it_r fst snd].
  rewrite moffs_app, moffs_opt_blob. cbn [app moffs rf_align rf_size map].
  intros Heq. injection Heq as Hhd Htl.
  rewrite gaps_ok_from_cons. destruct (gap_ok off (m_align m) (m_offset m)) eqn:Hc.
  - destruct (pad_lands false true off _ _ _ _ Hp Ho (conj Ha (N.le_refl _)) Ha
                (N.mod_same (m_align m) ltac:(lia)) (or_introl eq_refl)
                (or_intror (conj eq_refl Hc))) as [P1 _].
    cbn zeta in P1. rewrite P1 in Htl. now apply IH.
  - pose proof (legacy_pad_overshoots off _ _ Hp Ho Hc) as P. cbn zeta in P. lia.
Qed.

Definition array_item (x : amember) : item := of_tagged (array_tag x).

Lemma emit_arrays_items : forall env cs ca xs,
  emit_arrays env cs ca xs
  = fst (finish env cs ca (emit_items env init_state (map array_item xs))).
Proof. intros. unfold emit_arrays. now rewrite emit_with_items, map_map. Qed.

Lemma array_view_consistent : forall x, array_consistent x = true ->
  array_view x = plain_view (am_member x) \/
  (array_view x = (m_size (am_member x), 8) /\ 8 < m_align (am_member x)).
Proof.
  intros x Hx. unfold array_view, array_consistent, array_adjust, MAX_GUARANTEED_ALIGN in *.
  destruct (am_elem x) as [[[es ea] len]|]; [|now left].
  apply andb_prop in Hx as [Hx H3]. apply andb_prop in Hx as [H1 H2].
  apply N.eqb_eq in H1, H2, H3.
  destruct (N.ltb_spec 8 ea) as [Hgt|Hle]; [right|now left].
  rewrite (align_to_fix es ea H3), H1, H2. now split.
Qed.

Lemma items_ok_arrays : forall xs,
  forallb member_ok (map am_member xs) = true -> forallb array_consistent xs = true ->
  Forall item_ok (map array_item xs).
Proof.
  induction xs as [|x r IH]; intros Hok Hc; [constructor|].
  cbn [map forallb] in Hok, Hc.
  apply andb_prop in Hok as [Hm Hok]. apply andb_prop in Hc as [Hx Hc].
  cbn [map]. constructor; [|now apply IH].
  destruct (member_ok_elim _ Hm) as (Hp & _ & _). pose proof (pow2_pos _ Hp) as Ha.
  unfold item_ok. cbn [array_item of_tagged array_tag it_m it_told it_r fst snd].
  rewrite (N.mod_same (m_align _)) by lia.
  destruct (array_view_consistent x Hx) as [->|[-> Hgt]]; cbn [plain_view fst snd].
  - rewrite N.mod_same by lia. repeat split; auto.
  - rewrite pow2_gt8_mod8 by assumption. repeat split; auto; lia.
Qed.

Theorem natural_layout : forall c_size c_align ms,
  c_natural c_size c_align ms = true ->
  let '(fs, ea) := emit (plain_env false c_size c_align) c_size c_align ms in
  member_offsets fs = map m_offset ms /\
  rust_size_align ea (map snd fs) = (c_size, c_align).
Proof.
  intros cs ca ms Hnat.
  exact (proj1 (layout_plain (plain_env false cs ca) cs ca ms eq_refl eq_refl Hnat
                  (or_introl eq_refl))).
Qed.

Theorem explicit_padding_partial : forall c_size c_align ms,
  c_natural c_size c_align ms = true ->
  let '(fs, ea) := emit (plain_env true c_size c_align) c_size c_align ms in
  member_offsets fs = map m_offset ms /\
  rust_size_align ea (map snd fs) = (c_size, c_align).
Proof.
  intros cs ca ms Hnat.
  exact (proj1 (layout_plain (plain_env true cs ca) cs ca ms eq_refl eq_refl Hnat
                  (or_introl eq_refl))).
Qed.

Theorem tail_padding_then_pad_struct_adds_nothing : forall env st size align st1 l,
  step env st (AddTailPadding size align) = (st1, Some l) ->
  latest_offset st1 = size /\
  snd (step env st1 (PadStruct size align)) = None.
Proof.
  intros env st size align st1 l H.
  assert (Hlo : latest_offset st1 = size).
  { cbn [step] in H.
    destruct (negb (force_explicit_padding env)); [discriminate H|].
    destruct (is_union env); [discriminate H|].
    destruct (last_field_was_flexible_array st); [discriminate H|].
    destruct (latest_offset st =? size); [discriminate H|].
    unfold padding_field in H. injection H as <- _. reflexivity. }
  split; [exact Hlo|].
  cbn [step]. rewrite Hlo, N.ltb_irrefl, N.sub_diag. reflexivity.
Qed.

Example c_natural_nonvacuous :
  c_natural 8 4 [mk 1 1 0; mk 4 4 4] = true /\
  c_natural 8 4 [mk 4 4 0; mk 1 1 4] = true /\
  c_natural 24 8 [mk 1 1 0; mk 8 8 8; mk 1 1 16] = true /\
  c_natural 16 8 [mk 8 8 0; mk 1 1 8; mk 2 2 10; mk 4 4 12] = true /\
  c_natural 16 4 [mk 1 1 0; mk 12 4 4] = true /\
  c_natural 32 8 [mk 1 1 0; mk 24 8 8] = true /\
  c_natural 32 16 [mk 1 1 0; mk 16 16 16] = true /\
  c_natural 4 4 [mk 4 4 0] = true /\
  c_natural 0 1 [] = false /\
  c_natural 8 4 [mk 1 1 0; mk 4 4 1] = false /\
  c_natural 12 4 [mk 1 1 0; mk 4 4 4] = false.
Proof. repeat split; vm_compute; reflexivity. Qed.

Example natural_layout_nonvacuous :
  emit (plain_env false 24 8) 24 8 [mk 1 1 0; mk 8 8 8; mk 1 1 16]
    = ([(true, RField 1 1); (true, RField 8 8); (true, RField 1 1)], None) /\
  c_natural 32 16 witness_ms = true /\
  emit (plain_env false 32 16) 32 16 witness_ms
    = ([(true, RField 4 4); (true, RField 1 1); (false, RField 11 1); (true, RField 16 16)],
       Some 16) /\
  c_natural 32 16 [mk 8 8 0; mk 16 16 16] = true /\
  emit (plain_env false 32 16) 32 16 [mk 8 8 0; mk 16 16 16]
    = ([(true, RField 8 8); (false, RField 8 8); (true, RField 16 16)], Some 16).
Proof. repeat split; vm_compute; reflexivity. Qed.

Example natural_layout_old_nonvacuous :
  gaps_ok [mk 8 8 0; mk 16 16 16] = true /\
  emit (legacy_env 32 16) 32 16 [mk 8 8 0; mk 16 16 16]
    = ([(true, RField 8 8); (false, RField 8 8); (true, RField 16 16)], Some 16) /\
  gaps_ok witness_ms = false /\
  gaps_ok [mk 1 1 0; mk 16 16 16] = false.
Proof. repeat split; vm_compute; reflexivity. Qed.

Example explicit_padding_nonvacuous :
  emit (plain_env true 32 16) 32 16 witness_ms
    = ([(true, RField 4 4); (true, RField 1 1); (false, RField 11 1); (true, RField 16 16)],
       Some 16) /\
  emit (plain_env true 24 8) 24 8 [mk 1 1 0; mk 8 8 8; mk 1 1 16]
    = ([(true, RField 1 1); (false, RField 7 1); (true, RField 8 8); (true, RField 1 1);
        (false, RField 7 1)], None).
Proof. split; vm_compute; reflexivity. Qed.

Example array_hack_nonvacuous :
  array_adjust (32, 16) (Some ((16, 16), 2)) = (32, 8) /\
  array_adjust (96, 16) (Some ((48, 16), 2)) = (96, 8) /\
  array_adjust (16, 8) (Some ((8, 8), 2)) = (16, 8) /\
  array_adjust (12, 4) None = (12, 4).
Proof. repeat split; vm_compute; reflexivity. Qed.

Example blob_nonvacuous :
  blob_size 11 8 = 16 /\ blob_align 11 8 = 8 /\      (* grows *)
  blob_size 7 4 = 4 /\ blob_size 7 2 = 6 /\          (* shrinks *)
  blob_size 5 0 = 5 /\ blob_align 5 0 = 1 /\
  blob_size 24 8 = 24 /\ blob_size 12 4 = 12.
Proof. repeat split; vm_compute; reflexivity. Qed.

Example align_to_nonvacuous :
  align_to 1 1 = 1 /\ align_to 1 2 = 2 /\ align_to 1 4 = 4 /\ align_to 5 1 = 5 /\
  align_to 17 4 = 20 /\ align_to 17 0 = 17.
Proof. repeat split; vm_compute; reflexivity. Qed.

Example for_size_internal_nonvacuous :
  for_size_internal 8 8 = (8, 8) /\ for_size_internal 8 24 = (24, 8) /\
  for_size_internal 8 3 = (3, 1) /\ for_size_internal 8 12 = (12, 4) /\
  for_size_internal 4 24 = (24, 4) /\ for_size_internal 8 0 = (0, 8).
Proof. repeat split; vm_compute; reflexivity. Qed.

Example explicit_padding_bitfield_single_tail :
  snd (run (plain_env true 4 4) init_state
         [SawBitfieldUnit 1 1; AddTailPadding 4 4; PadStruct 4 4])
    = [None; Some (3, 0); None] /\
  rust_size_align None [RField 1 1; blob_field (3, 0)] = (4, 1).
Proof. split; vm_compute; reflexivity. Qed.
