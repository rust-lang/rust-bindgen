(* C02 — a natural C struct, laid out by bindgen's tracker and padding blobs, has under rustc's
   repr(C) rules the offsets, size and alignment it has in C: for the current source; for the legacy
   padding rule ([legacy_env]) and the array adjustment ([array_adjust]), with the exact class of
   structs on which they fail. *)
From Coq Require Import NArith List Bool Lia.
From BG Require Import C02.Model C02.Proofs.
Import ListNotations.
Open Scope N_scope.

Theorem align_to_least_multiple : forall s a, 0 < a ->
  s <= align_to s a /\ (align_to s a) mod a = 0 /\ align_to s a < s + a.
Proof. exact Proofs.align_to_least_multiple. Qed.
Print Assumptions align_to_least_multiple.

(* bindgen's align_to is the Rust Reference's "round up to a multiple of" *)
Theorem align_to_round_up : forall s a, 0 < a -> align_to s a = round_up s a.
Proof. exact Proofs.align_to_round_up. Qed.
Print Assumptions align_to_round_up.

(* for every [a], also those the source cannot be asked for: a = 3 panics there, and a non power
   of two above 4 is rejected by rustc (Model.v, at blob_align) *)
Theorem blob_exact : forall s a, 0 < a -> s mod a = 0 ->
  blob_size s a = s /\ blob_align s a = a.
Proof. exact Proofs.blob_exact. Qed.
Print Assumptions blob_exact.

Theorem blob_size_general : forall s a,
  (0 < a -> blob_size s a = (if a <=? 4 then (s / a) * a else round_up s a) /\
            blob_align s a = a) /\
  (a = 0 -> blob_size s a = s /\ blob_align s a = 1).
Proof.
  intros s a. split.
  - intros Ha. rewrite blob_size_round_up. unfold blob_align.
    replace (N.max a 1) with a by lia. now split.
  - intros ->. apply blob_align0.
Qed.
Print Assumptions blob_size_general.

(* so a blob whose size is not a multiple of its alignment never has the size asked for *)
Theorem blob_size_le4_loses : forall s a, 0 < a -> a <= 4 -> s mod a <> 0 -> blob_size s a < s.
Proof.
  intros s a Ha H4 Hs. unfold blob_size. replace (N.max a 1) with a by lia.
  destruct (N.leb_spec a 4) as [_|]; [|lia].
  apply N.neq_0_lt_0 in Hs. pose proof (N.div_mod' s a). lia.
Qed.
Print Assumptions blob_size_le4_loses.

Theorem blob_size_gt4_gains : forall s a, 4 < a -> s mod a <> 0 -> s < blob_size s a.
Proof.
  intros s a Ha Hs. unfold blob_size. replace (N.max a 1) with a by lia.
  destruct (N.leb_spec a 4) as [|_]; [lia|].
  destruct (align_to_least_multiple s a ltac:(lia)) as (H1 & H2 & H3).
  destruct (N.eq_dec (align_to s a) s) as [E|E]; [|lia].
  rewrite E in H2. contradiction.
Qed.
Print Assumptions blob_size_gt4_gains.

(* the model's loop returns a value at which the loop condition of the source is false: it stopped
   where the source's `while` stops, not for lack of fuel *)
Theorem for_size_internal_fuel_ok : forall p size,
  let r := for_size_loop (S (N.to_nat (N.log2 p))) p size 2 in
  (size mod r =? 0) && (r <=? p) = false.
Proof. exact Proofs.for_size_internal_fuel_ok. Qed.
Print Assumptions for_size_internal_fuel_ok.

(* the current source (padding_align falls back to 1 when the gap does not start at,
   or is not, a multiple of min(align, 8)): every natural struct comes out right,
   whatever the alignments of its members *)
Theorem natural_layout : forall c_size c_align ms,
  c_natural c_size c_align ms = true ->
  let '(fs, ea) := emit (plain_env false c_size c_align) c_size c_align ms in
  member_offsets fs = map m_offset ms /\
  rust_size_align ea (map snd fs) = (c_size, c_align).
Proof. exact Proofs.natural_layout. Qed.
Print Assumptions natural_layout.

(* with --explicit-padding, where every gap and the tail are written out as byte arrays *)
Theorem explicit_padding_partial : forall c_size c_align ms,
  c_natural c_size c_align ms = true ->
  let '(fs, ea) := emit (plain_env true c_size c_align) c_size c_align ms in
  member_offsets fs = map m_offset ms /\
  rust_size_align ea (map snd fs) = (c_size, c_align).
Proof. exact Proofs.explicit_padding_partial. Qed.
Print Assumptions explicit_padding_partial.

(* attributes of a natural struct: never the `align == 1 => packed` branch, and
   #[repr(align(N))] exactly when N >= 16 *)
Theorem natural_attributes : forall force c_size c_align ms,
  c_natural c_size c_align ms = true ->
  snd (emit_full (plain_env force c_size c_align) c_size c_align ms) = false /\
  snd (emit (plain_env force c_size c_align) c_size c_align ms)
    = (if 16 <=? c_align then Some c_align else None).
Proof.
  intros force cs ca ms Hnat.
  exact (proj2 (layout_plain (plain_env force cs ca) cs ca ms eq_refl eq_refl Hnat
                  (or_introl (orb_true_r _)))).
Qed.
Print Assumptions natural_attributes.

(* whenever add_tail_padding emits a field it leaves the tracker at the end of the struct,
   and the pad_struct that follows (same layout) emits nothing: whatever the environment and
   the state, the tail is never padded twice *)
Theorem tail_padding_then_pad_struct_adds_nothing : forall env st size align st1 l,
  step env st (AddTailPadding size align) = (st1, Some l) ->
  latest_offset st1 = size /\
  snd (step env st1 (PadStruct size align)) = None.
Proof. exact Proofs.tail_padding_then_pad_struct_adds_nothing. Qed.
Print Assumptions tail_padding_then_pad_struct_adds_nothing.

(* The legacy rule ([legacy_env]: padding_align = min(align, 8)) is wrong:
   struct { int a; char b; long double c; } gets the padding blob
   __BindgenOpaqueArray8<[u8; 11]>, which is 16 bytes long and starts at 8, so `c`
   lands at 32 instead of 16 and the struct is 48 bytes instead of 32 *)
Theorem natural_layout_old_refuted :
  c_natural 32 16 witness_ms = true /\
  emit (legacy_env 32 16) 32 16 witness_ms =
    ([(true, RField 4 4); (true, RField 1 1); (false, RField 16 8); (true, RField 16 16)],
     Some 16) /\
  member_offsets (fst (emit (legacy_env 32 16) 32 16 witness_ms)) = [0; 4; 32] /\
  map m_offset witness_ms = [0; 4; 16] /\
  rust_size_align (Some 16)
    (map snd (fst (emit (legacy_env 32 16) 32 16 witness_ms))) = (48, 16) /\
  ~ (forall c_size c_align ms,
       c_natural c_size c_align ms = true ->
       let '(fs, ea) := emit (legacy_env c_size c_align) c_size c_align ms in
       member_offsets fs = map m_offset ms /\
       rust_size_align ea (map snd fs) = (c_size, c_align)).
Proof.
  assert (C : c_natural 32 16 witness_ms = true) by (vm_compute; reflexivity).
  assert (E : emit (legacy_env 32 16) 32 16 witness_ms =
    ([(true, RField 4 4); (true, RField 1 1); (false, RField 16 8); (true, RField 16 16)],
     Some 16)) by (vm_compute; reflexivity).
  rewrite E. cbn [fst].
  assert (O : member_offsets
    [(true, RField 4 4); (true, RField 1 1); (false, RField 16 8); (true, RField 16 16)]
    = [0; 4; 32]) by (vm_compute; reflexivity).
  split; [exact C|]. split; [reflexivity|]. split; [exact O|]. split; [reflexivity|].
  split; [vm_compute; reflexivity|].
  intros H. specialize (H _ _ _ C). rewrite E in H. destruct H as [H _].
  rewrite O in H. discriminate H.
Qed.
Print Assumptions natural_layout_old_refuted.

(* the legacy rule is right on the structs in which every gap in front of a member aligned above 8
   starts at a multiple of 8 ([gaps_ok]) *)
Theorem natural_layout_old_overaligned_partial : forall c_size c_align ms,
  c_natural c_size c_align ms = true ->
  gaps_ok ms = true ->
  let '(fs, ea) := emit (legacy_env c_size c_align) c_size c_align ms in
  member_offsets fs = map m_offset ms /\
  rust_size_align ea (map snd fs) = (c_size, c_align).
Proof.
  intros cs ca ms Hnat Hg.
  exact (proj1 (layout_plain (legacy_env cs ca) cs ca ms eq_refl eq_refl Hnat (or_intror Hg))).
Qed.
Print Assumptions natural_layout_old_overaligned_partial.

(* and wrong exactly on [gaps_ok ms = false] *)
Theorem natural_layout_old_overaligned_exact : forall c_size c_align ms,
  c_natural c_size c_align ms = true ->
  (member_offsets (fst (emit (legacy_env c_size c_align) c_size c_align ms))
     = map m_offset ms
   <-> gaps_ok ms = true).
Proof.
  intros cs ca ms Hnat. split.
  - intros Heq. destruct (c_natural_elim _ _ _ Hnat) as (Hok & Hoff & _).
    rewrite emit_offsets_fields in Heq by auto. now apply fields_legacy_exact.
  - intros Hg. pose proof (natural_layout_old_overaligned_partial cs ca ms Hnat Hg) as H.
    destruct (emit _ cs ca ms) as [fs ea]. apply H.
Qed.
Print Assumptions natural_layout_old_overaligned_exact.

(* [array_adjust] (Model.v; the current saw_field has no such step): an array of elements aligned
   above 8 is announced to the tracker with alignment 8, every other member as it is. *)
Theorem array_hack_harmless_when_elem_align_le_8 : forall fl es ea len,
  ea <= 8 -> array_adjust fl (Some ((es, ea), len)) = fl.
Proof.
  intros fl es ea len H. unfold array_adjust, MAX_GUARANTEED_ALIGN.
  destruct (N.ltb_spec 8 ea); [lia|reflexivity].
Qed.
Print Assumptions array_hack_harmless_when_elem_align_le_8.

(* Under the current padding_align rule the adjustment changes no layout: the Rust field has the
   array's own alignment, and a padding blob, where one is written, fills exactly the gap. *)
Theorem array_hack_harmless : forall c_size c_align xs,
  c_natural c_size c_align (map am_member xs) = true ->
  forallb array_consistent xs = true ->
  let '(fs, ea) := emit_arrays (plain_env false c_size c_align) c_size c_align xs in
  member_offsets fs = map m_offset (map am_member xs) /\
  rust_size_align ea (map snd fs) = (c_size, c_align).
Proof.
  intros cs ca xs Hnat Hcons. rewrite emit_arrays_items.
  pose proof (layout_items (plain_env false cs ca) cs ca (map array_item xs) eq_refl eq_refl) as L.
  rewrite map_map in L. destruct (c_natural_elim _ _ _ Hnat) as (Hok & _).
  exact (proj1 (L Hnat (items_ok_arrays xs Hok Hcons) (or_introl eq_refl))).
Qed.
Print Assumptions array_hack_harmless.

(* Under the legacy rule it does: struct { char c; long double a[2]; } has `a` at 32 and size 64
   instead of 16 and 48; the last conjunct is the output under the current rule *)
Theorem array_hack_old_refuted :
  c_natural 48 16 (map am_member array_witness) = true /\
  forallb array_consistent array_witness = true /\
  map array_view array_witness = [(1, 1); (32, 8)] /\
  emit_arrays (legacy_env 48 16) 48 16 array_witness
    = ([(true, RField 1 1); (false, RField 16 8); (true, RField 32 16)], Some 16) /\
  member_offsets (fst (emit_arrays (legacy_env 48 16) 48 16 array_witness)) = [0; 32] /\
  map m_offset (map am_member array_witness) = [0; 16] /\
  rust_size_align (Some 16)
    (map snd (fst (emit_arrays (legacy_env 48 16) 48 16 array_witness))) = (64, 16) /\
  emit_arrays (plain_env false 48 16) 48 16 array_witness
    = ([(true, RField 1 1); (false, RField 15 1); (true, RField 32 16)], Some 16).
Proof.
  repeat split; vm_compute; reflexivity.
Qed.
Print Assumptions array_hack_old_refuted.

Example c_natural_nonvacuous :
  c_natural 8 4 [mk 1 1 0; mk 4 4 4] = true /\
  c_natural 8 4 [mk 4 4 0; mk 1 1 4] = true /\
  c_natural 24 8 [mk 1 1 0; mk 8 8 8; mk 1 1 16] = true /\
  c_natural 16 8 [mk 8 8 0; mk 1 1 8; mk 2 2 10; mk 4 4 12] = true /\
  c_natural 16 4 [mk 1 1 0; mk 12 4 4] = true /\
  c_natural 32 8 [mk 1 1 0; mk 24 8 8] = true /\
  c_natural 32 16 [mk 1 1 0; mk 16 16 16] = true /\
  c_natural 4 4 [mk 4 4 0] = true /\
  c_natural 0 1 [] = false /\
  c_natural 8 4 [mk 1 1 0; mk 4 4 1] = false /\
  c_natural 12 4 [mk 1 1 0; mk 4 4 4] = false.
Proof. exact Proofs.c_natural_nonvacuous. Qed.
Print Assumptions c_natural_nonvacuous.

(* the three shapes of padding in front of an over-aligned member under the current
   rule: none emitted for small members, [u8; 11] when the gap is unaligned,
   __BindgenOpaqueArray8<[u8; 8]> when start and length are multiples of 8 *)
Example natural_layout_nonvacuous :
  emit (plain_env false 24 8) 24 8 [mk 1 1 0; mk 8 8 8; mk 1 1 16]
    = ([(true, RField 1 1); (true, RField 8 8); (true, RField 1 1)], None) /\
  c_natural 32 16 witness_ms = true /\
  emit (plain_env false 32 16) 32 16 witness_ms
    = ([(true, RField 4 4); (true, RField 1 1); (false, RField 11 1); (true, RField 16 16)],
       Some 16) /\
  c_natural 32 16 [mk 8 8 0; mk 16 16 16] = true /\
  emit (plain_env false 32 16) 32 16 [mk 8 8 0; mk 16 16 16]
    = ([(true, RField 8 8); (false, RField 8 8); (true, RField 16 16)], Some 16).
Proof. exact Proofs.natural_layout_nonvacuous. Qed.
Print Assumptions natural_layout_nonvacuous.

Example natural_layout_old_nonvacuous :
  gaps_ok [mk 8 8 0; mk 16 16 16] = true /\
  emit (legacy_env 32 16) 32 16 [mk 8 8 0; mk 16 16 16]
    = ([(true, RField 8 8); (false, RField 8 8); (true, RField 16 16)], Some 16) /\
  gaps_ok witness_ms = false /\
  gaps_ok [mk 1 1 0; mk 16 16 16] = false.
Proof. exact Proofs.natural_layout_old_nonvacuous. Qed.
Print Assumptions natural_layout_old_nonvacuous.

Example explicit_padding_nonvacuous :
  emit (plain_env true 32 16) 32 16 witness_ms
    = ([(true, RField 4 4); (true, RField 1 1); (false, RField 11 1); (true, RField 16 16)],
       Some 16) /\
  emit (plain_env true 24 8) 24 8 [mk 1 1 0; mk 8 8 8; mk 1 1 16]
    = ([(true, RField 1 1); (false, RField 7 1); (true, RField 8 8); (true, RField 1 1);
        (false, RField 7 1)], None).
Proof. exact Proofs.explicit_padding_nonvacuous. Qed.
Print Assumptions explicit_padding_nonvacuous.

Example array_hack_nonvacuous :
  array_adjust (32, 16) (Some ((16, 16), 2)) = (32, 8) /\
  array_adjust (96, 16) (Some ((48, 16), 2)) = (96, 8) /\
  array_adjust (16, 8) (Some ((8, 8), 2)) = (16, 8) /\
  array_adjust (12, 4) None = (12, 4).
Proof. exact Proofs.array_hack_nonvacuous. Qed.
Print Assumptions array_hack_nonvacuous.

Example blob_nonvacuous :
  blob_size 11 8 = 16 /\ blob_align 11 8 = 8 /\
  blob_size 7 4 = 4 /\ blob_size 7 2 = 6 /\
  blob_size 5 0 = 5 /\ blob_align 5 0 = 1 /\
  blob_size 24 8 = 24 /\ blob_size 12 4 = 12.
Proof. exact Proofs.blob_nonvacuous. Qed.
Print Assumptions blob_nonvacuous.

Example align_to_nonvacuous :
  align_to 1 1 = 1 /\ align_to 1 2 = 2 /\ align_to 1 4 = 4 /\ align_to 5 1 = 5 /\
  align_to 17 4 = 20 /\ align_to 17 0 = 17.
Proof. exact Proofs.align_to_nonvacuous. Qed.
Print Assumptions align_to_nonvacuous.

Example for_size_internal_nonvacuous :
  for_size_internal 8 8 = (8, 8) /\ for_size_internal 8 24 = (24, 8) /\
  for_size_internal 8 3 = (3, 1) /\ for_size_internal 8 12 = (12, 4) /\
  for_size_internal 4 24 = (24, 4) /\ for_size_internal 8 0 = (0, 8).
Proof. exact Proofs.for_size_internal_nonvacuous. Qed.
Print Assumptions for_size_internal_nonvacuous.

(* struct { int a : 1; } with --explicit-padding: add_tail_padding advances latest_offset, so the
   3 bytes of the tail are written once and pad_struct finds nothing left to add *)
Example explicit_padding_bitfield_single_tail :
  snd (run (plain_env true 4 4) init_state
         [SawBitfieldUnit 1 1; AddTailPadding 4 4; PadStruct 4 4])
    = [None; Some (3, 0); None] /\
  rust_size_align None [RField 1 1; blob_field (3, 0)] = (4, 1).
Proof. exact Proofs.explicit_padding_bitfield_single_tail. Qed.
Print Assumptions explicit_padding_bitfield_single_tail.
