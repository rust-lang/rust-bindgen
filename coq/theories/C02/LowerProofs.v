(* C02 — lowered member alignments as an instance of Proofs.layout_items: the tracker is told the
   C layout of each member, the Rust field has alignment [lralign]. *)
From Coq Require Import NArith List Bool Lia.
From BG Require Import C02.Model C02.Proofs C02.Lower.
Import ListNotations.
Open Scope N_scope.

Definition l_item (x : lmember) : item :=
  {| it_m := lm x; it_told := plain_view (lm x); it_r := lralign x |}.

Lemma emit_members_l_items : forall env xs st,
  emit_members_l env st xs = emit_items env st (map l_item xs).
Proof.
  intros env. induction xs as [|x r IH]; intros st; [reflexivity|].
  cbn [map l_item plain_view emit_members_l emit_items it_m it_told it_r fst snd].
  destruct (step env st _) as [st1 pad]. now rewrite IH.
Qed.

Lemma emit_l_items : forall env cs ca xs,
  emit_l env cs ca xs = fst (finish env cs ca (emit_items env init_state (map l_item xs))).
Proof.
  intros. rewrite <- emit_members_l_items. unfold emit_l, finish.
  destruct (emit_members_l _ _ _) as [st1 fs]. destruct (step env st1 _) as [st2 tail].
  now destruct (step env st2 _) as [st3 pad].
Qed.

(* a lowered member is over-aligned in C: the tracker is told 16 or more, which forces the
   padding in front of it *)
Lemma items_ok_lowered : forall xs,
  forallb member_ok (map lm xs) = true -> forallb lowered_ok xs = true ->
  Forall item_ok (map l_item xs).
Proof.
  induction xs as [|x r IH]; intros Hok Hlow; [constructor|].
  cbn [map forallb] in Hok, Hlow.
  apply andb_prop in Hok as [Hm Hok]. apply andb_prop in Hlow as [Hx Hlow].
  cbn [map]. constructor; [|now apply IH].
  destruct (member_ok_elim _ Hm) as (Hp & _ & _). pose proof (pow2_pos _ Hp) as Ha.
  unfold item_ok. cbn [l_item plain_view it_m it_told it_r fst snd].
  rewrite N.mod_same by lia.
  unfold lowered_ok, MAX_GUARANTEED_ALIGN in Hx. apply orb_prop in Hx as [E|H].
  - apply N.eqb_eq in E. rewrite E, N.mod_same by lia. repeat split; auto.
  - apply andb_prop in H as [H _]. apply andb_prop in H as [H H3]. apply andb_prop in H as [H1 H2].
    apply N.ltb_lt in H1, H3. repeat split; auto.
    + now apply pow2_pos.
    + apply pow2_divides; auto; lia.
    + right. now apply pow2_gt8_ge16.
Qed.
