(* C02 — unions: what the tracker does on a union and what rustc does with the fields of the two
   emitted forms. *)
From Coq Require Import NArith List Bool Lia.
From BG Require Import C02.Model C02.Proofs C02.Union.
Import ListNotations.
Open Scope N_scope.

Lemma align_to_latest_field_max_align : forall env st s a,
  max_field_align (fst (align_to_latest_field env st s a)) = max_field_align st.
Proof.
  intros env st s a. unfold align_to_latest_field.
  destruct (is_packed env); [reflexivity|].
  destruct (latest_field_layout st) as [[ls la]|]; [|reflexivity].
  destruct (last_field_was_bitfield st && _ && _); reflexivity.
Qed.

Lemma union_step_field : forall env st s a off st' pad,
  is_union env = true ->
  step env st (SawField s a off) = (st', pad) ->
  pad = None /\ max_field_align st' = N.max (max_field_align st) a.
Proof.
  intros env st s a off st' pad Hun.
  cbn [step]. unfold saw_field_with_layout.
  pose proof (align_to_latest_field_max_align env st s a) as Hm.
  destruct (align_to_latest_field env st s a) as [st1 w]. cbn [fst] in Hm.
  rewrite Hun, orb_true_r.
  intros H. injection H as <- <-. split; [reflexivity|].
  unfold with_offset. cbn [max_field_align]. now rewrite Hm.
Qed.

(* [max_field_align] starts from 0, [max_align] from 1 *)
Lemma see_members_inv : forall env, is_union env = true ->
  forall ms st st' pads,
  see_members env st ms = (st', pads) ->
  Forall (fun p => p = None) pads /\
  N.max 1 (max_field_align st') = N.max (max_field_align st) (max_align ms).
Proof.
  intros env Hun. induction ms as [|m r IH]; intros st st' pads; cbn [see_members].
  - intros H. injection H as <- <-. split; [constructor|apply N.max_comm].
  - destruct (step env st _) as [st1 pad] eqn:E1.
    destruct (see_members env st1 r) as [st2 pads'] eqn:E2.
    intros H. injection H as <- <-.
    destruct (union_step_field _ _ _ _ _ _ _ Hun E1) as [-> Hm1].
    destruct (IH _ _ _ E2) as [Hp Hm2].
    split; [now constructor|].
    rewrite Hm2, Hm1. symmetry. apply N.max_assoc.
Qed.

Lemma union_no_tail_padding : forall env st cs ca, is_union env = true ->
  tail_padding false env st cs ca = (st, None).
Proof.
  intros env st cs ca Hun. unfold tail_padding. cbn [step]. rewrite Hun.
  now destruct (negb (force_explicit_padding env)).
Qed.

Lemma c_union_natural_elim : forall cs ca ms, c_union_natural cs ca ms = true ->
  max_align ms <= ca /\ cs = round_up (max_size ms) ca /\ 0 < ca /\ cs mod ca = 0.
Proof.
  intros cs ca ms H. unfold c_union_natural in H.
  apply andb_prop in H as [H _]. apply andb_prop in H as [Ha Hs].
  apply N.leb_le in Ha. apply N.eqb_eq in Hs.
  assert (Hpos : 0 < ca) by (pose proof (fold_max_ge _ snd 1 ms : 1 <= max_align ms); lia).
  repeat split; auto.
  rewrite Hs. now destruct (round_up_bounds (max_size ms) ca Hpos) as (_ & H2 & _).
Qed.

Lemma rust_max_align_members : forall ms : list (N * N),
  rust_max_align (map (fun m => RField (fst m) (snd m)) ms) = max_align ms.
Proof.
  unfold rust_max_align, max_align.
  induction ms as [|m r IH]; cbn [map fold_right rf_align]; [reflexivity|]. now rewrite IH.
Qed.

Lemma max_rf_size_members : forall ms : list (N * N),
  fold_right (fun f acc => N.max (rf_size f) acc) 0 (map (fun m => RField (fst m) (snd m)) ms)
  = max_size ms.
Proof.
  unfold max_size.
  induction ms as [|m r IH]; cbn [map fold_right rf_size]; [reflexivity|]. now rewrite IH.
Qed.

Lemma markers_rust : forall (ms : list (N * N)) l,
  let fs := map (fun _ => RField 0 1) ms ++ l in
  rust_max_align fs = rust_max_align l /\
  rust_end_from 0 fs = rust_end_from 0 l /\
  (Forall (fun o => o = 0) (rust_offsets_from 0 l) ->
   Forall (fun o => o = 0) (rust_offsets_from 0 fs)).
Proof.
  intros ms l. cbn zeta. induction ms as [|m r (I1 & I2 & I3)]; [now repeat split|].
  cbn [map app rust_offsets_from rust_end_from rf_align rf_size].
  rewrite rust_max_align_cons, round_up_0, N.add_0_r, I1, I2. cbn [rf_align].
  pose proof (rust_max_align_ge1 l). repeat split; [lia|]. intros Hl. constructor; auto.
Qed.

Lemma wrapper_union_old_refuted : exists c_size c_align ms,
  ms <> [] /\ c_union_natural c_size c_align ms = true /\
  let '(fs, explicit, pads) := emit_wrapper_union true true c_size c_align ms in
  rust_size_align explicit fs <> (c_size, c_align).
Proof.
  exists 16, 8, [(1, 1); (8, 8); (9, 1)].
  split; [discriminate|]. split; [vm_compute; reflexivity|].
  vm_compute. discriminate.
Qed.
