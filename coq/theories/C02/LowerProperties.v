(* C02 — members whose Rust spelling is less aligned than the C type: the struct still has C's layout
   when every such member is aligned above 8 in C, and need not at 8. *)
From Coq Require Import NArith List Bool.
From BG Require Import C02.Model C02.Proofs C02.Lower C02.LowerProofs.
Import ListNotations.
Open Scope N_scope.

(* natural_layout carries over to structs with vector-typed / over-aligned-typedef members: whenever the lowered
   members are over-aligned in C (alignment above 8), every member sits at its C offset and the struct has C's size
   and alignment -- with and without --explicit-padding *)
Theorem natural_layout_lowered : forall force c_size c_align ms,
  c_natural c_size c_align (map lm ms) = true ->
  forallb lowered_ok ms = true ->
  let '(fs, ea) := emit_l (plain_env force c_size c_align) c_size c_align ms in
  member_offsets fs = map m_offset (map lm ms) /\
  rust_size_align ea (map snd fs) = (c_size, c_align).
Proof.
  intros force cs ca xs Hnat Hlow. rewrite emit_l_items.
  destruct (c_natural_elim _ _ _ Hnat) as (Hok & _).
  pose proof (layout_items (plain_env force cs ca) cs ca (map l_item xs) eq_refl eq_refl) as L.
  rewrite map_map in L.
  exact (proj1 (L Hnat (items_ok_lowered xs Hok Hlow) (or_introl (orb_true_r _)))).
Qed.
Print Assumptions natural_layout_lowered.

(* with all members at their C alignment this is the emission of Properties.natural_layout *)
Theorem emit_l_unlowered : forall env c_size c_align ms,
  emit_l env c_size c_align (map (fun m => {| lm := m; lralign := m_align m |}) ms) = emit env c_size c_align ms.
Proof.
  intros env cs ca ms. unfold emit. now rewrite emit_l_items, emit_full_items, map_map.
Qed.
Print Assumptions emit_l_unlowered.

(* the bound "above 8" is needed: an 8-byte vector of two floats (`typedef float v2f __attribute__((vector_size(8)));`,
   C alignment 8, Rust spelling [f32; 2] with alignment 4) in `struct { char c; v2f v; }`: C has v at 8, size 16,
   alignment 8; no padding is forced (the gap of 7 is below the alignment and the alignment is not above 8), the Rust
   struct has v at 4, size 12, alignment 4 (known finding C02-layout:vector8) *)
Theorem lowered_align8_refuted :
  let ms := [ {| lm := {| m_size := 1; m_align := 1; m_offset := 0 |}; lralign := 1 |};
              {| lm := {| m_size := 8; m_align := 8; m_offset := 8 |}; lralign := 4 |} ] in
  c_natural 16 8 (map lm ms) = true /\
  (let '(fs, ea) := emit_l (plain_env false 16 8) 16 8 ms in
   member_offsets fs = [0; 4] /\ rust_size_align ea (map snd fs) = (12, 4)).
Proof.
  vm_compute. repeat split; reflexivity.
Qed.
Print Assumptions lowered_align8_refuted.

(* struct { long a; char b; v4f v; char t; } *)
Example lowered_nonvacuous :
  let ms := [ {| lm := {| m_size := 8; m_align := 8; m_offset := 0 |}; lralign := 8 |};
              {| lm := {| m_size := 1; m_align := 1; m_offset := 8 |}; lralign := 1 |};
              {| lm := {| m_size := 16; m_align := 16; m_offset := 16 |}; lralign := 4 |};
              {| lm := {| m_size := 1; m_align := 1; m_offset := 32 |}; lralign := 1 |} ] in
  c_natural 48 16 (map lm ms) = true /\ forallb lowered_ok ms = true /\
  (let '(fs, ea) := emit_l (plain_env false 48 16) 48 16 ms in
   member_offsets fs = [0; 8; 16; 32] /\ rust_size_align ea (map snd fs) = (48, 16)).
Proof. vm_compute. repeat split; reflexivity. Qed.
