(* C02 — unions: both emitted forms have C's size and alignment and never a padding field; under the
   rule [old_tail] of Union.v the wrapper form gets one in front of its blob. *)
From Coq Require Import NArith List Bool Lia.
From BG Require Import C02.Model C02.Proofs C02.Union C02.UnionProofs.
Import ListNotations.
Open Scope N_scope.

(* form (a): a Rust union has C's size and alignment, and no padding field is ever inserted in it,
   for every natural C union (alignment possibly raised by an attribute), with and without
   --explicit-padding *)
Theorem rust_union_layout : forall force c_size c_align ms,
  ms <> [] -> c_union_natural c_size c_align ms = true ->
  let '(fs, explicit, pads) := emit_rust_union force c_size c_align ms in
  rust_union_size_align explicit fs = (c_size, c_align) /\
  Forall (fun p => p = None) pads.
Proof.
  intros force cs ca ms _ Hnat.
  destruct (c_union_natural_elim _ _ _ Hnat) as (Hal & Hcs & Hpos & Hmod).
  unfold emit_rust_union. cbv zeta.
  destruct (see_members (union_env true force cs ca) init_state ms) as [st1 pads] eqn:E1.
  rewrite union_no_tail_padding by reflexivity.
  destruct (see_members_inv (union_env true force cs ca) eq_refl _ _ _ _ E1) as [Hp Hm].
  cbn [init_state max_field_align] in Hm. rewrite N.max_0_l in Hm.
  split; [|apply Forall_app; auto].
  unfold rust_union_size_align.
  (* [Hm]: the tracker has seen the members' strictest alignment, up to where the maximum starts *)
  rewrite rust_max_align_members, max_rf_size_members, requires_explicit_align_eq, explicit_align_ok, <- Hcs;
    auto; lia.
Qed.
Print Assumptions rust_union_layout.

(* form (b): the struct that stands for the union has C's size and alignment, all markers and the blob
   at offset 0.  The blob is the model's total function: an alignment rustc cannot give a blob
   (Model.v, at blob_align) is not excluded by a hypothesis *)
Theorem wrapper_union_layout : forall force c_size c_align ms,
  ms <> [] -> c_union_natural c_size c_align ms = true ->
  let '(fs, explicit, pads) := emit_wrapper_union false force c_size c_align ms in
  rust_size_align explicit fs = (c_size, c_align) /\
  Forall (fun o => o = 0) (rust_offsets fs) /\
  Forall (fun p => p = None) pads.
Proof.
  intros force cs ca ms _ Hnat.
  destruct (c_union_natural_elim _ _ _ Hnat) as (Hal & Hcs & Hpos & Hmod).
  unfold emit_wrapper_union. cbv zeta.
  destruct (see_members (union_env false force cs ca) init_state ms) as [st1 pads] eqn:E1.
  rewrite union_no_tail_padding by reflexivity.
  destruct (see_members_inv (union_env false force cs ca) eq_refl _ _ _ _ E1) as [Hp Hm].
  cbn [init_state max_field_align] in Hm. rewrite N.max_0_l in Hm.
  cbn [app]. rewrite (blob_field_exact cs ca Hpos Hmod).
  destruct (markers_rust ms [RField cs ca]) as (M1 & M2 & M3). cbn zeta in M1, M2, M3.
  split; [|split; [|apply Forall_app; auto]].
  - unfold rust_size_align. rewrite M1, M2, rust_max_align_cons, rust_max_align_nil.
    cbn [rust_end_from rf_align rf_size].
    rewrite round_up_0, N.add_0_l, requires_explicit_align_eq, explicit_align_ok by lia.
    now rewrite round_up_fix.
  - apply M3. cbn [rust_offsets_from]. rewrite round_up_0. now repeat constructor.
Qed.
Print Assumptions wrapper_union_layout.

(* under [old_tail] (add_tail_padding returns early for Rust unions only): with --explicit-padding a
   union whose largest member is smaller than the union (its size is rounded up to the alignment) gets
   a padding field in front of the blob *)
Theorem wrapper_union_old_refuted : exists c_size c_align ms,
  ms <> [] /\ c_union_natural c_size c_align ms = true /\
  let '(fs, explicit, pads) := emit_wrapper_union true true c_size c_align ms in
  rust_size_align explicit fs <> (c_size, c_align).
Proof. exact C02.UnionProofs.wrapper_union_old_refuted. Qed.
Print Assumptions wrapper_union_old_refuted.

(* without --explicit-padding the old and the new rule coincide *)
Theorem wrapper_union_old_same_without_explicit_padding : forall c_size c_align ms,
  emit_wrapper_union true false c_size c_align ms = emit_wrapper_union false false c_size c_align ms.
Proof.
  intros cs ca ms. unfold emit_wrapper_union. cbv zeta.
  destruct (see_members (union_env false false cs ca) init_state ms) as [st1 pads].
  now rewrite union_no_tail_padding.
Qed.
Print Assumptions wrapper_union_old_same_without_explicit_padding.

Example union_nonvacuous :
  c_union_natural 16 8 [(1, 1); (8, 8); (9, 1)] = true /\
  emit_wrapper_union false true 16 8 [(1, 1); (8, 8); (9, 1)] =
    ([RField 0 1; RField 0 1; RField 0 1; RField 16 8], None, [None; None; None; None]) /\
  emit_wrapper_union true true 16 8 [(1, 1); (8, 8); (9, 1)] =
    ([RField 0 1; RField 0 1; RField 0 1; RField 7 1; RField 16 8], None, [None; None; None; Some (7, 0)]).
Proof. vm_compute. repeat split; reflexivity. Qed.
