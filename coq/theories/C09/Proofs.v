(* C09 — the traversal loop keeps [Inv]: seen = queue + done, the done nodes' accepted edges
   lead to seen nodes.  Reachability, termination and the allowlist statements are read off it. *)
From Coq Require Import NArith List Bool Lia Permutation.
From BG Require Import C07.Proofs C07.Model C09.Model.
Import ListNotations.
Open Scope N_scope.

Lemma dedup_In : forall l s x, In x (dedup l s) <-> In x l /\ ~ In x s.
Proof.
  induction l as [|a t IH]; intros s x; cbn [dedup].
  - split; [intros []|intros [[] _]].
  - destruct (mem a s) eqn:Hm.
    + apply mem_In in Hm. split.
      * intros H. apply IH in H. split; [right; apply H|apply H].
      * intros [[<-|Ht] Hs]; [contradiction|]. apply IH. split; assumption.
    + assert (Hn : ~ In a s) by (intros Hi; apply mem_In in Hi; congruence). split.
      * intros [<-|H]; [split; [left; reflexivity|exact Hn]|]. apply IH in H.
        split; [right; apply H|]. intros Hx. apply H. right. exact Hx.
      * intros [[<-|Ht] Hs]; [left; reflexivity|].
        destruct (N.eq_dec a x) as [E|E]; [left; exact E|right]. apply IH.
        split; [exact Ht|]. intros [E'|Hx]; [exact (E E')|exact (Hs Hx)].
Qed.

Lemma dedup_NoDup : forall l s, NoDup (dedup l s).
Proof.
  induction l as [|a t IH]; intros s; cbn [dedup].
  - constructor.
  - destruct (mem a s) eqn:Hm.
    + apply IH.
    + constructor; [| apply IH].
      intros Hin. apply dedup_In in Hin. destruct Hin as [_ Hn]. apply Hn. left. reflexivity.
Qed.

(* what [push_new] adds, to the seen set and to the queue alike: the accepted targets not
   seen so far, once each, the last found in front *)
Definition fresh_targets (pred : edge_pred) (edges : list (N * N)) (seen : list N) : list N :=
  rev (dedup (map fst (filter pred edges)) seen).

Lemma push_new_eq : forall pred edges seen queue,
  push_new pred edges seen queue =
  (fresh_targets pred edges seen ++ seen, fresh_targets pred edges seen ++ queue).
Proof.
  intros pred edges. unfold fresh_targets.
  induction edges as [|e rest IH]; intros seen queue; cbn [push_new filter]; [reflexivity|].
  destruct (pred e); cbn [andb map dedup]; [|apply IH].
  destruct (mem (fst e) seen); cbn [negb]; rewrite IH; [reflexivity|].
  cbn [rev]. rewrite <- !app_assoc. reflexivity.
Qed.

Lemma In_fresh_targets : forall pred edges seen x,
  In x (fresh_targets pred edges seen) <->
  (exists e, In e edges /\ pred e = true /\ fst e = x) /\ ~ In x seen.
Proof.
  intros pred edges seen x. unfold fresh_targets. rewrite <- in_rev, dedup_In, in_map_iff.
  split; intros [[e H] Hs]; (split; [exists e|exact Hs]).
  - destruct H as [E H]. apply filter_In in H. destruct H. auto.
  - destruct H as (He & Hp & E). split; [exact E|]. apply filter_In. auto.
Qed.

Lemma NoDup_fresh_targets : forall pred edges seen,
  NoDup seen -> NoDup (fresh_targets pred edges seen ++ seen).
Proof.
  intros pred edges seen Hs. unfold fresh_targets.
  apply NoDup_app_disj; [apply NoDup_rev, dedup_NoDup|exact Hs|].
  intros x Hx. apply in_rev, dedup_In in Hx. apply Hx.
Qed.

(* The state of the loop: every seen node is in the queue or done, exactly once; the accepted
   edges of a done node lead to seen nodes; every seen node satisfies P (reachable, or inside
   a given universe). *)
Definition Inv (g : ir) (pred : edge_pred) (P : N -> Prop) (seen queue acc : list N) : Prop :=
  NoDup seen /\ Permutation (queue ++ acc) seen /\
  (forall n e, In n acc -> In e (trace (get g n)) -> pred e = true -> In (fst e) seen) /\
  (forall x, In x seen -> P x).

Lemma Inv_init : forall g pred (P : N -> Prop) roots,
  (forall r, In r roots -> P r) ->
  Inv g pred P (dedup roots []) (rev (dedup roots [])) [].
Proof.
  intros g pred P roots HP. split; [apply dedup_NoDup|]. split; [|split].
  - rewrite app_nil_r. apply Permutation_sym, Permutation_rev.
  - intros n e [].
  - intros x Hx. apply dedup_In in Hx. apply HP, Hx.
Qed.

Lemma Inv_step : forall g pred (P : N -> Prop),
  (forall n e, P n -> In e (trace (get g n)) -> pred e = true -> P (fst e)) ->
  forall seen n rest acc, Inv g pred P seen (n :: rest) acc ->
  let A := fresh_targets pred (trace (get g n)) seen in
  Inv g pred P (A ++ seen) (A ++ rest) (n :: acc).
Proof.
  intros g pred P HP seen n rest acc (Hnd & Hperm & Hcl & HPs) A.
  assert (Hn : In n seen) by (apply (Permutation_in _ Hperm); left; reflexivity).
  split; [apply NoDup_fresh_targets, Hnd|]. split; [|split].
  - rewrite <- app_assoc. apply Permutation_app_head.
    apply (perm_trans (Permutation_sym (Permutation_middle rest acc n))), Hperm.
  - intros n' e Hn' He Hp. apply in_or_app.
    destruct Hn' as [<-|Hn']; [|right; apply (Hcl n' e); assumption].
    destruct (in_dec N.eq_dec (fst e) seen) as [Hs|Hs]; [right; exact Hs|left].
    apply In_fresh_targets. split; [exists e; auto|exact Hs].
  - intros x Hx. apply in_app_or in Hx. destruct Hx as [Hx|Hx]; [|apply HPs, Hx].
    apply In_fresh_targets in Hx. destruct Hx as [[e (He & Hp & <-)] _].
    apply (HP n); [apply HPs, Hn|exact He|exact Hp].
Qed.

Lemma loop_spec : forall g pred (P : N -> Prop),
  (forall n e, P n -> In e (trace (get g n)) -> pred e = true -> P (fst e)) ->
  forall fuel seen queue acc res,
  traverse_loop fuel g pred seen queue acc = Some res ->
  Inv g pred P seen queue acc ->
  exists seen', incl seen seen' /\ Inv g pred P seen' [] (rev res).
Proof.
  intros g pred P HP.
  induction fuel as [|fuel IH]; intros seen [|n rest] acc res Hrun HI; cbn [traverse_loop] in Hrun;
    try discriminate Hrun.
  1, 2: injection Hrun as <-; exists seen; rewrite rev_involutive; split; [apply incl_refl|exact HI].
  rewrite push_new_eq in Hrun. apply IH in Hrun; [|apply Inv_step; assumption].
  destruct Hrun as [seen' [Hi HI']]. exists seen'. split; [|exact HI'].
  intros x Hx. apply Hi, in_or_app. right. exact Hx.
Qed.

Lemma traverse_spec : forall fuel g pred roots res,
  traverse fuel g pred roots = Some res ->
  NoDup res /\
  (forall r, In r roots -> In r res) /\
  (forall x, In x res -> reachable g pred roots x) /\
  (forall n, In n res -> forall e, In e (trace (get g n)) -> pred e = true -> In (fst e) res).
Proof.
  intros fuel g pred roots res H.
  apply (loop_spec g pred (reachable g pred roots)) in H;
    [|intros n e; apply reach_step|apply Inv_init, reach_root].
  destruct H as (seen' & Hi & Hnd & Hperm & Hcl & HP).
  apply (perm_trans (Permutation_rev res)) in Hperm.
  assert (Hback : forall x, In x seen' -> In x res) by (intros x; apply Permutation_in, Permutation_sym, Hperm).
  split; [apply (Permutation_NoDup (Permutation_sym Hperm) Hnd)|]. split; [|split].
  - intros r Hr. apply Hback, Hi, dedup_In. split; [exact Hr|intros []].
  - intros x Hx. apply HP, (Permutation_in _ Hperm), Hx.
  - intros n Hn e He Hp. apply Hback, (Hcl n e); [apply -> in_rev; exact Hn|exact He|exact Hp].
Qed.

Lemma traversal_is_reachability : forall fuel g pred roots res,
  traverse fuel g pred roots = Some res ->
  forall n, In n res <-> reachable g pred roots n.
Proof.
  intros fuel g pred roots res H n. apply traverse_spec in H. destruct H as (_ & Hroots & Hreach & Hclosed).
  split; [apply Hreach|].
  intros Hr. induction Hr as [r Hr | m e Hm IH He Hp].
  - apply Hroots. exact Hr.
  - apply (Hclosed m); assumption.
Qed.

(* each step moves one of the at most |universe| seen nodes to the done list *)
Lemma loop_terminates : forall g pred universe,
  (forall n e, In n universe -> In e (trace (get g n)) -> pred e = true -> In (fst e) universe) ->
  forall fuel seen queue acc,
  Inv g pred (fun x => In x universe) seen queue acc ->
  (length universe <= fuel + length acc)%nat ->
  exists res, traverse_loop fuel g pred seen queue acc = Some res.
Proof.
  intros g pred universe Hcl.
  induction fuel as [|fuel IH]; intros seen [|n rest] acc HI Hlen; cbn [traverse_loop];
    try (eexists; reflexivity).
  - exfalso. destruct HI as (Hnd & Hperm & _ & Hincl).
    pose proof (NoDup_incl_length Hnd Hincl) as Hl.
    apply Permutation_length in Hperm. rewrite app_length in Hperm. cbn [length plus] in *. lia.
  - rewrite push_new_eq. apply IH; [apply Inv_step; assumption|cbn [length]; lia].
Qed.

(* the universe has to be closed under accepted edges only *)
Lemma traverse_total : forall g pred roots universe,
  (forall r, In r roots -> In r universe) ->
  (forall n e, In n universe -> In e (trace (get g n)) -> pred e = true -> In (fst e) universe) ->
  exists res, traverse (universe_bound g universe) g pred roots = Some res.
Proof.
  intros g pred roots universe Hroots Hcl.
  apply (loop_terminates g pred universe Hcl); [apply Inv_init, Hroots|].
  unfold universe_bound. cbn [length]. lia.
Qed.

Lemma allowlisted_spec : forall fuel g pred bl roots res,
  allowlisted fuel g pred bl roots = Some res ->
  forall n, In n res <-> reachable g pred roots n /\ bl n = false.
Proof.
  intros fuel g pred bl roots res H n. unfold allowlisted in H.
  destruct (traverse fuel g pred roots) as [res0|] eqn:Ht; [|discriminate H].
  injection H as <-. rewrite filter_In, negb_true_iff, (traversal_is_reachability _ _ _ _ _ Ht).
  reflexivity.
Qed.

Lemma closure : forall fuel g pred bl roots res,
  allowlisted fuel g pred bl roots = Some res ->
  forall n e, In n res -> In e (trace (get g n)) -> pred e = true ->
              In (fst e) res \/ bl (fst e) = true.
Proof.
  intros fuel g pred bl roots res H n e Hn He Hp.
  destruct (bl (fst e)) eqn:Hb; [right; reflexivity|left].
  apply (allowlisted_spec _ _ _ _ _ _ H). split; [|exact Hb].
  apply (reach_step _ _ _ n); [apply (allowlisted_spec _ _ _ _ _ _ H), Hn|exact He|exact Hp].
Qed.

Lemma minimal : forall fuel g pred bl roots res,
  allowlisted fuel g pred bl roots = Some res ->
  forall n, In n res -> reachable g pred roots n /\ bl n = false.
Proof. intros fuel g pred bl roots res H n. apply (allowlisted_spec _ _ _ _ _ _ H). Qed.

Lemma block_beats_allow : forall fuel g pred bl roots res n,
  allowlisted fuel g pred bl roots = Some res -> bl n = true -> ~ In n res.
Proof.
  intros fuel g pred bl roots res n H Hb Hn.
  apply (allowlisted_spec _ _ _ _ _ _ H) in Hn. destruct Hn as [_ Hb']. congruence.
Qed.

Lemma reachable_mono : forall g (pred1 pred2 : edge_pred) roots,
  (forall e, pred1 e = true -> pred2 e = true) ->
  forall n, reachable g pred1 roots n -> reachable g pred2 roots n.
Proof.
  intros g pred1 pred2 roots Hle n Hr. induction Hr as [r Hr | m e Hm IH He Hp].
  - apply reach_root. exact Hr.
  - eapply reach_step; [exact IH | exact He | apply Hle; exact Hp].
Qed.

Lemma allowlisted_mono : forall fuel1 fuel2 g (pred1 pred2 : edge_pred) bl roots res1 res2,
  (forall e, pred1 e = true -> pred2 e = true) ->
  allowlisted fuel1 g pred1 bl roots = Some res1 ->
  allowlisted fuel2 g pred2 bl roots = Some res2 ->
  forall n, In n res1 -> In n res2.
Proof.
  intros fuel1 fuel2 g pred1 pred2 bl roots res1 res2 Hle H1 H2 n Hn.
  apply (allowlisted_spec _ _ _ _ _ _ H1) in Hn. destruct Hn as [Hr Hb].
  apply (allowlisted_spec _ _ _ _ _ _ H2). split; [|exact Hb].
  apply (reachable_mono _ _ _ _ Hle), Hr.
Qed.

Definition mk_comp (inner meths bases : list N) : item :=
  {| i_kind := IType (KComp {| c_union := false; c_own_virtual := false; c_own_dtor := false;
        c_bases := bases; c_fields := []; c_all_tparams := []; c_inner_types := inner;
        c_inner_vars := []; c_methods := meths; c_dtor := None; c_ctors := [] |});
     i_opaque := false; i_stdint := false; i_vtable_ptr := false; i_layout_size := None |}.
Definition mk_int : item :=
  {| i_kind := IType KInt; i_opaque := false; i_stdint := false; i_vtable_ptr := false; i_layout_size := None |}.
Fixpoint mk_ir (l : list (N * item)) : ir := fun n =>
  match l with [] => None | (k, it) :: t => if n =? k then Some it else mk_ir t n end.

(* 1 -> 2 -> 3 -> 4 with 2 blocklisted: 3 and 4 are only reachable through the blocklisted 2,
   and are emitted all the same *)
Definition chain4 : ir :=
  mk_ir [(1, mk_comp [] [] [2]); (2, mk_comp [] [] [3]); (3, mk_comp [] [] [4]); (4, mk_int)].

Lemma through_blocklisted :
  let bl := fun n => n =? 2 in
  allowlisted 10 chain4 all_edges bl [1] = Some [1; 3; 4] /\
  bl 2 = true /\ In (3, E_BaseMember) (trace (get chain4 2)) /\
  (forall res, allowlisted 10 chain4 all_edges bl [1] = Some res -> In 3 res /\ ~ In 2 res).
Proof.
  cbn zeta.
  assert (H : allowlisted 10 chain4 all_edges (fun n => n =? 2) [1] = Some [1; 3; 4]) by (vm_compute; reflexivity).
  split; [exact H|]. split; [reflexivity|]. split; [vm_compute; left; reflexivity|].
  intros res Hres. rewrite H in Hres. injection Hres as <-.
  split; [right; left; reflexivity|]. intros [Hc | [Hc | [Hc | []]]]; discriminate Hc.
Qed.

(* seven items: a cycle 1 -> 2 -> 3 -> 1 (base members), 3 -m-> 4 (method), second root 5 with
   inner type 6, 6 -m-> 7 (method) and 6 -> 3 (base); 2 is blocklisted *)
Definition g7 : ir :=
  mk_ir [(1, mk_comp [] [] [2]); (2, mk_comp [] [] [3]); (3, mk_comp [] [4] [1]); (4, mk_int);
         (5, mk_comp [6] [] []); (6, mk_comp [] [7] [3]); (7, mk_int)].
Definition bl7 : N -> bool := fun n => n =? 2.
Definition cc_no_methods : cconfig :=
  {| cc_types := true; cc_vars := true; cc_methods := false; cc_ctors := true; cc_dtors := true |}.
Definition en_all : N -> bool := fun _ => true.
Definition u7 : list N := [1; 2; 3; 4; 5; 6; 7].

Example traverse_nonvacuous :
  traverse (universe_bound g7 u7) g7 all_edges [1; 5; 1] = Some [5; 6; 3; 4; 7; 1; 2].
Proof. vm_compute. reflexivity. Qed.

Example allowlisted_nonvacuous :
  allowlisted (universe_bound g7 u7) g7 all_edges bl7 [1; 5; 1] = Some [5; 6; 3; 4; 7; 1].
Proof. vm_compute. reflexivity. Qed.

Definition closed_b (g : ir) (pred : edge_pred) (bl : N -> bool) (res : list N) : bool :=
  forallb (fun n => forallb (fun e => negb (pred e) || mem (fst e) res || bl (fst e)) (trace (get g n))) res.

Example closure_nonvacuous :
  closed_b g7 all_edges bl7 [5; 6; 3; 4; 7; 1] = true /\
  (* the edge 1 -> 2 is the one excused by the blocklist *)
  In (2, E_BaseMember) (trace (get g7 1)) /\ bl7 2 = true /\ mem 2 [5; 6; 3; 4; 7; 1] = false /\
  (* dropping an item breaks it *)
  closed_b g7 all_edges bl7 [5; 6; 3; 7; 1] = false.
Proof. vm_compute. repeat split. left. reflexivity. Qed.

Example compute_nonvacuous :
  compute (universe_bound g7 u7) g7 true cc_no_methods en_all bl7 [1; 5; 1]
  = Some ([5; 6; 3; 4; 7; 1], [5; 6; 3; 1]).
Proof. vm_compute. reflexivity. Qed.

Example codegen_subset_nonvacuous :
  forallb (fun n => mem n [5; 6; 3; 4; 7; 1]) [5; 6; 3; 1] = true /\
  mem 4 [5; 6; 3; 1] = false /\ mem 7 [5; 6; 3; 1] = false.
Proof. vm_compute. repeat split. Qed.

Example compute_nonrecursive_nonvacuous :
  compute (universe_bound g7 u7) g7 false cc_no_methods en_all bl7 [1; 5; 1] = Some ([5; 6; 1], [5; 6; 1]).
Proof. vm_compute. reflexivity. Qed.

(* fuel one short of the number of distinct reachable items is not enough *)
Example fuel_tight_nonvacuous :
  traverse 7 g7 all_edges [1; 5] = Some [5; 6; 3; 4; 7; 1; 2] /\ traverse 6 g7 all_edges [1; 5] = None.
Proof. vm_compute. split; reflexivity. Qed.

(* duplicate roots, a root reachable from another root, a root absent from the graph *)
Example roots_nonvacuous :
  traverse 10 chain4 all_edges [1; 1; 3; 1; 3] = Some [3; 4; 1; 2] /\
  traverse 10 chain4 all_edges [99; 2; 99] = Some [2; 3; 4; 99].
Proof. vm_compute. split; reflexivity. Qed.
