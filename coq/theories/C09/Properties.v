From Coq Require Import NArith List Bool.
From BG Require Import C07.Model C09.Model C09.Proofs.
Import ListNotations.
Open Scope N_scope.

Theorem traversal_is_reachability : forall fuel g pred roots res,
  traverse fuel g pred roots = Some res ->
  forall n, In n res <-> reachable g pred roots n.
Proof. exact Proofs.traversal_is_reachability. Qed.
Print Assumptions traversal_is_reachability.

Theorem traversal_no_duplicates : forall fuel g pred roots res,
  traverse fuel g pred roots = Some res -> NoDup res.
Proof. intros fuel g pred roots res H. apply Proofs.traverse_spec in H. apply H. Qed.
Print Assumptions traversal_no_duplicates.

(* enough fuel always exists: the traversal terminates on every graph, cycles included *)
Theorem traversal_terminates : forall g pred roots universe,
  (forall r, In r roots -> In r universe) ->
  (forall n e, In n universe -> In e (trace (get g n)) -> In (fst e) universe) ->
  exists res, traverse (universe_bound g universe) g pred roots = Some res.
Proof.
  intros g pred roots universe Hroots Hcl. apply Proofs.traverse_total; [exact Hroots|].
  intros n e Hn He _. exact (Hcl n e Hn He).
Qed.
Print Assumptions traversal_terminates.

(* closure: everything an emitted item needs over an accepted edge is emitted too, unless the
   user blocklisted it *)
Theorem closure : forall fuel g pred bl roots res,
  allowlisted fuel g pred bl roots = Some res ->
  forall n e, In n res -> In e (trace (get g n)) -> pred e = true ->
              In (fst e) res \/ bl (fst e) = true.
Proof. exact Proofs.closure. Qed.
Print Assumptions closure.

(* minimality: nothing unrelated is emitted; what is reachable only through a blocklisted item
   is related, and emitted (Proofs.through_blocklisted) *)
Theorem minimal : forall fuel g pred bl roots res,
  allowlisted fuel g pred bl roots = Some res ->
  forall n, In n res -> reachable g pred roots n /\ bl n = false.
Proof. exact Proofs.minimal. Qed.
Print Assumptions minimal.

(* an item matched by both an allowlist and a blocklist is not emitted *)
Theorem block_beats_allow : forall fuel g pred bl roots res n,
  allowlisted fuel g pred bl roots = Some res -> bl n = true -> ~ In n res.
Proof. exact Proofs.block_beats_allow. Qed.
Print Assumptions block_beats_allow.

(* same roots, fewer edges *)
Theorem codegen_subset : forall fuel g cc en bl roots al cg,
  compute fuel g true cc en bl roots = Some (al, cg) -> forall n, In n cg -> In n al.
Proof.
  intros fuel g cc en bl roots al cg H. unfold compute in H.
  destruct (allowlisted fuel g all_edges bl roots) as [al'|] eqn:Hal; [|discriminate H].
  destruct (allowlisted fuel g (codegen_edges cc en) bl roots) as [cg'|] eqn:Hcg; [|discriminate H].
  injection H as <- <-. apply (Proofs.allowlisted_mono _ _ _ _ _ _ _ _ _) with (2 := Hcg) (3 := Hal).
  intros e _. reflexivity.
Qed.
Print Assumptions codegen_subset.

(* root selection: an item matched by the set of its kind is a root; with no allowlist at all
   everything enabled is a root; a disabled item never is *)
Theorem roots_spec : forall q,
  (q_enabled q = false -> is_root q = false) /\
  (q_enabled q = true -> q_no_allowlists q = true -> is_root q = true) /\
  (q_enabled q = true -> q_kind_match q = true -> q_kind q <> RModule -> is_root q = true) /\
  (is_root q = true -> q_no_allowlists q = false -> q_replaces q = false -> q_file_match q = false ->
   q_item_match q = false -> q_kind_match q = false ->
   match q_kind q with
   | RModule => True
   | RType builtin ev => (q_recursive q = false /\ (builtin = true \/ q_stdint q = true)) \/ ev = true
   | _ => False
   end).
Proof.
  intros [en na rp fm im km rc sd k]. unfold is_root.
  cbn [q_enabled q_no_allowlists q_replaces q_file_match q_item_match q_kind_match q_recursive q_stdint q_kind].
  split; [|split; [|split]].
  - intros ->. reflexivity.
  - intros -> ->. reflexivity.
  - intros -> -> Hne.
    destruct k as [| | | b ev]; [contradiction Hne; reflexivity|..]; cbn [andb orb]; apply orb_true_r.
  - intros Hr -> -> -> -> ->.
    destruct k as [| | | b ev]; [exact I | | |];
      destruct en; cbn [andb orb] in Hr; try discriminate Hr.
    destruct ev; [right; reflexivity|].
    destruct rc; cbn [negb andb orb] in Hr; [discriminate Hr|].
    left. split; [reflexivity|].
    destruct b; [left; reflexivity|]. cbn [orb] in Hr. right.
    rewrite orb_false_r in Hr. exact Hr.
Qed.
Print Assumptions roots_spec.
