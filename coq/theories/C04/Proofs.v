(* C04 — [apc_spec] says once what [after_prefix_check] accepts; the binding theorems are case
   analyses over it and over the equations of [names_identical], [bound_symbol], [llvm_mangle]. *)
From Coq Require Import NArith List Bool PeanoNat.
From BG Require Import C04.Model.
Import ListNotations.
Open Scope N_scope.

Lemma str_eqb_spec : forall a b, reflect (a = b) (str_eqb a b).
Proof.
  induction a as [|x a IH]; intros [|y b]; cbn [str_eqb]; try (constructor; congruence).
  destruct (N.eqb_spec x y) as [->|]; [destruct (IH b) as [->|]|]; constructor; congruence.
Qed.

Lemma str_eqb_refl : forall a, str_eqb a a = true.
Proof. intro a. destruct (str_eqb_spec a a); congruence. Qed.

Lemma firstn_app_exact : forall (a b : str), firstn (length a) (a ++ b) = a.
Proof. induction a as [|x a IH]; intro b; simpl; [reflexivity|]. rewrite IH. reflexivity. Qed.

Lemma skipn_app_exact : forall (a b : str), skipn (length a) (a ++ b) = b.
Proof. induction a as [|x a IH]; intro b; simpl; [reflexivity|]. apply IH. Qed.

Lemma digit_ok : forall n, is_digit (48 + n mod 10) = true.
Proof.
  intro n. assert (H : n mod 10 < N.succ 9) by (apply N.mod_lt; discriminate).
  apply andb_true_iff. split; apply N.leb_le.
  - apply N.le_add_r.
  - change 57 with (48 + 9). apply N.add_le_mono_l, N.lt_succ_r, H.
Qed.

Lemma dec_aux_digits : forall fuel n acc,
  forallb is_digit acc = true -> forallb is_digit (dec_aux fuel n acc) = true.
Proof.
  induction fuel as [|f IH]; intros n acc H; cbn [dec_aux]; [assumption|].
  assert (forallb is_digit ((48 + n mod 10) :: acc) = true) as H'.
  { cbn [forallb]. rewrite digit_ok, H. reflexivity. }
  destruct (n / 10 =? 0); [assumption|]. apply IH. assumption.
Qed.

Lemma dec_aux_nonempty : forall fuel n acc, acc <> [] \/ fuel <> O -> dec_aux fuel n acc <> [].
Proof.
  induction fuel as [|f IH]; intros n acc H; cbn [dec_aux]; [destruct H; congruence|].
  destruct (n / 10 =? 0); [discriminate|]. apply IH. left. discriminate.
Qed.

Lemma dec_digits : forall n, forallb is_digit (dec n) = true.
Proof. intro n. unfold dec. apply dec_aux_digits. reflexivity. Qed.

Lemma dec_nonempty : forall n, dec n <> [].
Proof. intro n. unfold dec. apply dec_aux_nonempty. right. discriminate. Qed.

(* the prefix check accepts exactly prefix ++ canonical name ++ what the convention appends *)
Definition suffix_ok (sfx : bool) (rest : str) : Prop :=
  if sfx then exists ds, rest = at_sign :: ds /\ ds <> [] /\ forallb is_digit ds = true
  else rest = [].

Lemma apc_spec : forall can m c,
  after_prefix_check can m c = true <->
  exists pfx sfx rest, conv_prefix c = Some (pfx, sfx) /\ m = pfx :: can ++ rest /\ suffix_ok sfx rest.
Proof.
  intros can m c. unfold after_prefix_check.
  destruct (conv_prefix c) as [[pfx sfx]|];
    [|split; [discriminate|intros (? & ? & ? & H & _); discriminate H]].
  split.
  - intro H.
    destruct (Nat.ltb (length m) (length can + 1)); [discriminate|].
    destruct m as [|m0 rest]; [discriminate|].
    destruct (N.eqb_spec m0 pfx) as [->|]; cbn [negb] in H; [|discriminate].
    destruct (str_eqb_spec (firstn (length can) rest) can) as [E|]; cbn [negb] in H; [|discriminate].
    pose proof (firstn_skipn (length can) rest) as F. rewrite E in F.
    exists pfx, sfx, (skipn (length can) rest). split; [reflexivity|]. split.
    + rewrite F. reflexivity.
    + destruct sfx; unfold suffix_ok.
      * destruct (skipn (length can) rest) as [|s0 [|d ds]]; try discriminate.
        cbn [tl] in H. apply andb_true_iff in H. destruct H as [H1 H2].
        apply N.eqb_eq in H1. subst s0. exists (d :: ds). split; [reflexivity|].
        split; [discriminate|assumption].
      * apply Nat.eqb_eq in H. cbn [length] in H. rewrite Nat.add_1_r in H. injection H as H.
        apply skipn_all2. rewrite H. apply le_n.
  - intros (p & s & rest & E & -> & Hr). injection E as <- <-.
    rewrite (proj2 (Nat.ltb_ge _ _))
      by (cbn [length]; rewrite app_length, Nat.add_1_r; apply le_n_S, Nat.le_add_r).
    rewrite N.eqb_refl, firstn_app_exact, str_eqb_refl, skipn_app_exact. cbn [negb].
    destruct sfx; cbn [suffix_ok] in Hr.
    + destruct Hr as (ds & -> & Hne & Hd). destruct ds as [|d ds]; [congruence|].
      cbn [tl]. rewrite N.eqb_refl. exact Hd.
    + subst rest. rewrite app_nil_r. cbn [length]. rewrite Nat.add_1_r. apply Nat.eqb_refl.
Qed.

Lemma apc_other : forall can m, after_prefix_check can m CC_Other = false.
Proof. reflexivity. Qed.

Lemma conv_prefix_undecorated : forall c p s, c <> CC_Stdcall -> c <> CC_Fastcall ->
  conv_prefix c = Some (p, s) -> p = underscore /\ s = false.
Proof.
  intros c p s Hs Hf E.
  destruct c; try contradiction; try discriminate E; injection E as <- <-; split; reflexivity.
Qed.

Lemma names_identical_refl : forall tp n c, names_identical tp n n c = true.
Proof. intros. unfold names_identical. rewrite str_eqb_refl. reflexivity. Qed.

Lemma names_identical_neq : forall tp can m c, can <> m ->
  names_identical tp can m c = tp && after_prefix_check can m c.
Proof.
  intros tp can m c H. unfold names_identical.
  destruct (str_eqb_spec can m); [contradiction|]. destruct tp; reflexivity.
Qed.

Lemma bound_symbol_None : forall md tp c can m ab,
  bound_symbol md tp c can m None ab =
  if names_identical tp can m c then llvm_mangle md c can ab else m.
Proof.
  intros. unfold bound_symbol, link_attr. destruct (names_identical tp can m c); reflexivity.
Qed.

Lemma llvm_mangle_undecorated : forall md c n ab, c <> CC_Stdcall -> c <> CC_Fastcall ->
  llvm_mangle md c n ab = (if has_prefix md then [underscore] else []) ++ n.
Proof.
  intros md c n ab Hs Hf. destruct md; try reflexivity; destruct c; try reflexivity; contradiction.
Qed.

Lemma llvm_mangle_no_prefix : forall md c n ab, has_prefix md = false -> llvm_mangle md c n ab = n.
Proof. intros md c n ab H. destruct md; try discriminate H; destruct c; reflexivity. Qed.

Lemma mangled_recognised : forall md c name ab,
  has_prefix md = true -> c <> CC_Other ->
  (md = MachO -> c <> CC_Stdcall /\ c <> CC_Fastcall) ->
  names_identical true name (llvm_mangle md c name ab) c = true.
Proof.
  intros md c name ab Hp Hc Hm. unfold names_identical.
  destruct (str_eqb name (llvm_mangle md c name ab)); [reflexivity|]. cbn [negb].
  assert (Hdec : suffix_ok true (at_sign :: dec ab)).
  { exists (dec ab). split; [reflexivity|]. split; [apply dec_nonempty|apply dec_digits]. }
  apply apc_spec. destruct c; try contradiction.
  1, 2: rewrite llvm_mangle_undecorated, Hp by discriminate;
        exists underscore, false, []; rewrite app_nil_r; repeat split.
  all: destruct md; try discriminate Hp; [destruct (Hm eq_refl); contradiction|].
  - exists underscore, true, (at_sign :: dec ab). repeat split. exact Hdec.
  - exists at_sign, true, (at_sign :: dec ab). repeat split. exact Hdec.
Qed.

Lemma no_prefix_target_correct : forall md tp c can m ab,
  has_prefix md = false -> (tp = true -> has_prefix md = true) ->
  bound_symbol md tp c can m None ab = m.
Proof.
  intros md tp c can m ab Hp Htp. rewrite bound_symbol_None.
  destruct tp; [rewrite (Htp eq_refl) in Hp; discriminate|].
  destruct (str_eqb_spec can m) as [<-|Hne].
  - rewrite names_identical_refl. apply llvm_mangle_no_prefix, Hp.
  - rewrite (names_identical_neq _ _ _ _ Hne). reflexivity.
Qed.

Lemma binds_undecorated : forall md tp c can m ab,
  (tp = true -> has_prefix md = true) ->
  c <> CC_Stdcall -> c <> CC_Fastcall ->
  (has_prefix md = true -> can <> m) ->
  bound_symbol md tp c can m None ab = m.
Proof.
  intros md tp c can m ab Htp Hs Hf Hne. rewrite bound_symbol_None.
  destruct (names_identical tp can m c) eqn:E; [|reflexivity].
  rewrite (llvm_mangle_undecorated md c can ab Hs Hf).
  destruct (str_eqb_spec can m) as [<-|Hd].
  - destruct (has_prefix md); [destruct (Hne eq_refl eq_refl)|reflexivity].
  - (* the names differ, so the prefix check accepted: m is `_` ++ can on a prefixed target *)
    rewrite (names_identical_neq _ _ _ _ Hd) in E. apply andb_true_iff in E. destruct E as [-> A].
    rewrite (Htp eq_refl).
    apply apc_spec in A. destruct A as (p & s & rest & Hc & -> & Hr).
    apply (conv_prefix_undecorated c p s Hs Hf) in Hc. destruct Hc as [-> ->].
    cbn [suffix_ok] in Hr. subst rest. rewrite app_nil_r. reflexivity.
Qed.

Lemma binds_c_symbol_undecorated : forall md tp c can n ab,
  (tp = true -> has_prefix md = true) ->
  c <> CC_Stdcall -> c <> CC_Fastcall ->
  (has_prefix md = true -> can <> c_symbol md c n ab) ->
  bound_symbol md tp c can (c_symbol md c n ab) None ab = c_symbol md c n ab.
Proof. intros. apply binds_undecorated; assumption. Qed.

Lemma binds_decorated : forall tp c can m ab,
  (c = CC_Stdcall \/ c = CC_Fastcall) -> can <> m ->
  (forall ds, m = (match c with CC_Fastcall => at_sign | _ => underscore end) :: can ++ at_sign :: ds -> ds = dec ab) ->
  bound_symbol WinX86 tp c can m None ab = m.
Proof.
  intros tp c can m ab Hc Hne Hds. rewrite bound_symbol_None, (names_identical_neq _ _ _ _ Hne).
  destruct tp; [cbn [andb]|reflexivity].
  destruct (after_prefix_check can m c) eqn:A; [|reflexivity].
  apply apc_spec in A. destruct A as (p & s & rest & Hp & Hm & Hr).
  destruct Hc; subst c; injection Hp as <- <-; destruct Hr as (ds & -> & _);
    rewrite (Hds ds Hm) in Hm; subst m; reflexivity.
Qed.

Lemma plain_unrenamed_correct : forall md tp c name ab,
  bound_symbol md tp c name (c_symbol md c (Plain name) ab) None ab = c_symbol md c (Plain name) ab.
Proof.
  intros md tp c name ab. rewrite bound_symbol_None. cbn [c_symbol].
  destruct (names_identical tp name (llvm_mangle md c name ab) c); reflexivity.
Qed.

Example ex_identical_stdcall :
  names_identical true [102;111;111] [95;102;111;111;64;49;50] CC_Stdcall = true.
Proof. reflexivity. Qed.
Example ex_identical_no_prefix :
  names_identical false [102;111;111] [95;102;111;111;64;49;50] CC_Stdcall = false.
Proof. reflexivity. Qed.
Example ex_identical_stdcall_no_digits :
  names_identical true [102;111;111] [95;102;111;111;64] CC_Stdcall = false.
Proof. reflexivity. Qed.
Example ex_identical_c_prefixed :
  names_identical true [102;111;111] [95;102;111;111] CC_C = true.
Proof. reflexivity. Qed.
Example ex_identical_other :
  names_identical true [102;111;111] [95;102;111;111] CC_Other = false.
Proof. reflexivity. Qed.
Example ex_mangle_fastcall : llvm_mangle WinX86 CC_Fastcall [102] 8 = [64;102;64;56].
Proof. reflexivity. Qed.
Example ex_mangle_stdcall :
  llvm_mangle WinX86 CC_Stdcall [102;111;111] 12 = [95;102;111;111;64;49;50].
Proof. reflexivity. Qed.
Example ex_mangle_macho : llvm_mangle MachO CC_Stdcall [102;111;111] 12 = [95;102;111;111].
Proof. reflexivity. Qed.
Example ex_mangle_elf : llvm_mangle ELF CC_C [102;111;111] 0 = [102;111;111].
Proof. reflexivity. Qed.
Example ex_dec_0 : dec 0 = [48].
Proof. reflexivity. Qed.
Example ex_dec_120 : dec 120 = [49;50;48].
Proof. reflexivity. Qed.
Example ex_bound_stdcall :
  bound_symbol WinX86 true CC_Stdcall [102;111;111] [95;102;111;111;64;49;50] None 12
  = [95;102;111;111;64;49;50].
Proof. reflexivity. Qed.
(* the decoration hypothesis of binds_decorated is needed: clang says @8, rustc computes 12 *)
Example ex_bound_stdcall_mismatch :
  bound_symbol WinX86 true CC_Stdcall [102;111;111] [95;102;111;111;64;56] None 12
  = [95;102;111;111;64;49;50].
Proof. reflexivity. Qed.
(* x86_64-apple-darwin *)
Example ex_triple_darwin :
  triple_prefixes [120;56;54;95;54;52;45;97;112;112;108;101;45;100;97;114;119;105;110] = true.
Proof. reflexivity. Qed.
(* i686-pc-windows-msvc *)
Example ex_triple_win32 :
  triple_prefixes [105;54;56;54;45;112;99;45;119;105;110;100;111;119;115;45;109;115;118;99] = true.
Proof. reflexivity. Qed.
(* x86_64-pc-windows-msvc *)
Example ex_triple_win64 :
  triple_prefixes [120;56;54;95;54;52;45;112;99;45;119;105;110;100;111;119;115;45;109;115;118;99] = false.
Proof. reflexivity. Qed.
(* x86_64-unknown-linux-gnu *)
Example ex_triple_linux :
  triple_prefixes [120;56;54;95;54;52;45;117;110;107;110;111;119;110;45;108;105;110;117;120;45;103;110;117] = false.
Proof. reflexivity. Qed.
(* aarch64-apple-ios *)
Example ex_triple_ios :
  triple_prefixes [97;97;114;99;104;54;52;45;97;112;112;108;101;45;105;111;115] = true.
Proof. reflexivity. Qed.
