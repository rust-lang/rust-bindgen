(* C04 / C14 — ABI selection: when [sig_abi] emits, and which conventions [get_abi] identifies. *)
From Coq Require Import List Bool String.
From BG Require Import C04.Abi.
Import ListNotations.
Open Scope string_scope.

Definition chosen_abi (own ov : option abi) : option abi :=
  match ov with Some a => Some a | None => own end.

Lemma sig_abi_emit_iff : forall own ov variadic f a,
  sig_abi own ov variadic f = Emit a <->
  chosen_abi own ov = Some a /\ available f a = true /\ (a = AWin64 -> variadic = false).
Proof.
  intros own ov variadic f a. unfold sig_abi. fold (chosen_abi own ov). split.
  - intro H. destruct (chosen_abi own ov) as [b|]; [|discriminate].
    destruct (available f b) eqn:E; cbn [negb] in H; [|discriminate].
    destruct b;
      try (injection H as <-; split; [reflexivity|split; [exact E|intro K; discriminate K]]).
    destruct variadic; [discriminate|]. injection H as <-.
    split; [reflexivity|split; [exact E|reflexivity]].
  - intros (-> & -> & Hw). cbn [negb].
    destruct a; try reflexivity. rewrite (Hw eq_refl). reflexivity.
Qed.

Lemma get_abi_fiber : forall c a, get_abi c = Some a ->
  match a with
  | AC => c = CDefault \/ c = CC_C
  | AVectorcall => c = CX86VectorCall \/ c = CAArch64VectorCall
  | AStdcall => c = CX86StdCall
  | AFastcall => c = CX86FastCall
  | AThisCall => c = CX86ThisCall
  | AAapcs => c = CAAPCS
  | AWin64 => c = CWin64
  | AEfiApi | ACUnwind | ASystem => False
  end.
Proof. intros c a H. destruct c; try discriminate H; injection H as <-; auto. Qed.
