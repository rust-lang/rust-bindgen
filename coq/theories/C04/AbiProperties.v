From Coq Require Import List Bool String.
From BG Require Import C04.Abi C04.AbiProofs.
Import ListNotations.
Open Scope string_scope.

Theorem emitted_abi_is_available : forall own ov variadic f a,
  sig_abi own ov variadic f = Emit a -> accepted_by_target f a = true.
Proof. intros own ov variadic f a H. apply sig_abi_emit_iff in H. destruct H as (_ & Ha & _). exact Ha. Qed.
Print Assumptions emitted_abi_is_available.

Theorem emitted_abi_is_the_declared_one : forall c variadic f a,
  sig_abi (get_abi c) None variadic f = Emit a -> get_abi c = Some a.
Proof. intros c variadic f a H. apply sig_abi_emit_iff in H. destruct H as (Hc & _). exact Hc. Qed.
Print Assumptions emitted_abi_is_the_declared_one.

Theorem override_wins : forall own a variadic f,
  available f a = true -> (a = AWin64 -> variadic = false) ->
  sig_abi own (Some a) variadic f = Emit a.
Proof. intros own a variadic f Ha Hw. apply sig_abi_emit_iff. repeat split; assumption. Qed.
Print Assumptions override_wins.

(* code generation panics on an `Ok(ClangAbi::Unknown(_))` (codegen/mod.rs, Function::codegen), so
   FunctionSig::abi must not return one *)
Theorem unknown_convention_yields_no_declaration : forall c variadic f,
  get_abi c = None -> exists why, sig_abi (get_abi c) None variadic f = Unsupported why.
Proof. intros c variadic f H. rewrite H. exists "unknown". reflexivity. Qed.
Print Assumptions unknown_convention_yields_no_declaration.

(* C14: [g] is a newer target than [f] *)
Theorem abi_monotone : forall own ov variadic f g a,
  (forall x, available f x = true -> available g x = true) ->
  sig_abi own ov variadic f = Emit a -> sig_abi own ov variadic g = Emit a.
Proof.
  intros own ov variadic f g a Hmono H. apply sig_abi_emit_iff in H. destruct H as (Hc & Ha & Hw).
  apply sig_abi_emit_iff. repeat split; [exact Hc|apply Hmono, Ha|exact Hw].
Qed.
Print Assumptions abi_monotone.

Theorem abi_str_roundtrip : forall a, abi_of_str (abi_str a) = Some a.
Proof. intros a. destruct a; reflexivity. Qed.
Print Assumptions abi_str_roundtrip.

Theorem abi_str_injective : forall a b, abi_str a = abi_str b -> a = b.
Proof.
  intros a b H. apply (f_equal abi_of_str) in H. rewrite !abi_str_roundtrip in H.
  injection H as H. exact H.
Qed.
Print Assumptions abi_str_injective.

(* the conventions that are told apart in C but share one Rust ABI: exactly the two vector-call ones and
   Default / C *)
Theorem get_abi_collisions : forall c d, get_abi c = get_abi d -> get_abi c <> None -> c <> d ->
  (c = CDefault /\ d = CC_C) \/ (c = CC_C /\ d = CDefault) \/
  (c = CX86VectorCall /\ d = CAArch64VectorCall) \/ (c = CAArch64VectorCall /\ d = CX86VectorCall).
Proof.
  intros c d He Hn Hd. destruct (get_abi c) as [a|] eqn:Ec; [|destruct Hn; reflexivity].
  symmetry in He. apply get_abi_fiber in Ec, He.
  (* c and d lie in one fibre of get_abi: a fibre of one convention contradicts c <> d, one of
     two leaves the two mixed pairs *)
  destruct a; try contradiction; try (subst; destruct Hd; reflexivity);
    destruct Ec as [->| ->], He as [->| ->]; try (destruct Hd; reflexivity); auto 6.
Qed.
Print Assumptions get_abi_collisions.

Example abi_nonvacuous :
  sig_abi (get_abi CWin64) None false {| thiscall_abi := false; vectorcall_abi := false; c_unwind_abi := false; abi_efiapi := false |} = Emit AWin64 /\
  sig_abi (get_abi CX86ThisCall) None false {| thiscall_abi := false; vectorcall_abi := false; c_unwind_abi := false; abi_efiapi := false |} = Unsupported "thiscall" /\
  sig_abi (get_abi CDefault) (Some AEfiApi) false {| thiscall_abi := true; vectorcall_abi := false; c_unwind_abi := true; abi_efiapi := false |} = Unsupported "efiapi" /\
  sig_abi (get_abi CX86RegCall) None false {| thiscall_abi := true; vectorcall_abi := true; c_unwind_abi := true; abi_efiapi := true |} = Unsupported "unknown".
Proof. vm_compute. repeat split; reflexivity. Qed.
