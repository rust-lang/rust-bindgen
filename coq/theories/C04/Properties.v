From Coq Require Import NArith List Bool.
From BG Require Import C04.Model C04.Proofs.
Import ListNotations.
Open Scope N_scope.

Theorem differing_names_link_mangled : forall md tp c can m ab,
  names_identical tp can m c = false -> bound_symbol md tp c can m None ab = m.
Proof. intros md tp c can m ab H. rewrite bound_symbol_None, H. reflexivity. Qed.
Print Assumptions differing_names_link_mangled.

Theorem explicit_link_name_wins : forall md tp c can m l ab,
  bound_symbol md tp c can m (Some l) ab = l.
Proof. reflexivity. Qed.
Print Assumptions explicit_link_name_wins.

(* targets that add no prefix (ELF, 64-bit Windows, wasm ...): the declaration binds the mangled
   name for every pair of names and every convention; [tp] is the triple classification, assumed
   sound (it says "prefix" only of a prefixed target, so of these targets it says "no prefix") *)
Theorem no_prefix_target_correct : forall md tp c can m ab,
  has_prefix md = false -> (tp = true -> has_prefix md = true) ->
  bound_symbol md tp c can m None ab = m.
Proof. exact C04.Proofs.no_prefix_target_correct. Qed.
Print Assumptions no_prefix_target_correct.

(* every target, undecorated conventions and variables: right unless the Rust name coincides with
   the already-prefixed symbol on a prefixed target (see equal_on_prefixed_refuted) *)
Theorem binds_c_symbol_undecorated : forall md tp c can n ab,
  (tp = true -> has_prefix md = true) ->
  c <> CC_Stdcall -> c <> CC_Fastcall ->
  (has_prefix md = true -> can <> c_symbol md c n ab) ->
  bound_symbol md tp c can (c_symbol md c n ab) None ab = c_symbol md c n ab.
Proof. exact C04.Proofs.binds_c_symbol_undecorated. Qed.
Print Assumptions binds_c_symbol_undecorated.

(* stdcall / fastcall on 32-bit x86 Windows: right whenever the decoration clang printed is the
   decimal of the argument byte count rustc computes for the emitted signature *)
Theorem binds_decorated : forall tp c can m ab,
  (c = CC_Stdcall \/ c = CC_Fastcall) -> can <> m ->
  (forall ds, m = (match c with CC_Fastcall => at_sign | _ => underscore end) :: can ++ at_sign :: ds -> ds = dec ab) ->
  bound_symbol WinX86 tp c can m None ab = m.
Proof. exact C04.Proofs.binds_decorated. Qed.
Print Assumptions binds_decorated.

Theorem plain_unrenamed_correct : forall md tp c name ab,
  bound_symbol md tp c name (c_symbol md c (Plain name) ab) None ab = c_symbol md c (Plain name) ab.
Proof. exact C04.Proofs.plain_unrenamed_correct. Qed.
Print Assumptions plain_unrenamed_correct.

(* on a prefixed target a plain, unrenamed declaration gets no redundant attribute: the target's
   own mangling of the name is recognised for every convention bindgen knows *)
Theorem prefixed_plain_needs_no_attribute : forall md c name ab,
  has_prefix md = true -> c <> CC_Other ->
  (md = MachO -> c <> CC_Stdcall /\ c <> CC_Fastcall) ->
  link_attr true c name (llvm_mangle md c name ab) None = None.
Proof.
  intros md c name ab Hp Hc Hm. unfold link_attr.
  rewrite (mangled_recognised md c name ab Hp Hc Hm). reflexivity.
Qed.
Print Assumptions prefixed_plain_needs_no_attribute.

Theorem other_conv_always_links : forall tp can m,
  can <> m -> link_attr tp CC_Other can m None = Some m.
Proof.
  intros tp can m H. unfold link_attr.
  rewrite (names_identical_neq _ _ _ _ H), apc_other, andb_false_r. reflexivity.
Qed.
Print Assumptions other_conv_always_links.

(* the rule before 9285a69d: on ELF, `int foo(int) __asm__("_foo")` bound the symbol `foo` *)
Theorem old_rule_refuted : exists can m,
  bound_symbol_old ELF CC_C can m 0 <> m /\ bound_symbol ELF false CC_C can m None 0 = m.
Proof.
  exists [102;111;111], [95;102;111;111]. split.
  - vm_compute. discriminate.
  - vm_compute. reflexivity.
Qed.
Print Assumptions old_rule_refuted.

(* residual corner (known finding): on a prefixed target an asm label equal to the Rust name *)
Theorem equal_on_prefixed_refuted : exists md can n,
  has_prefix md = true /\
  bound_symbol md true CC_C can (c_symbol md CC_C n 0) None 0 <> c_symbol md CC_C n 0.
Proof.
  exists MachO, [102;111;111], (AsmLabel [102;111;111]). split.
  - reflexivity.
  - vm_compute. discriminate.
Qed.
Print Assumptions equal_on_prefixed_refuted.

(* when clang's mangling is unavailable or distrusted, [mangled] falls back to the C name and the
   true symbol is the target's mangling of that name *)
Theorem fallback_unrenamed_correct : forall md tp c name ab,
  bound_symbol md tp c name name None ab = llvm_mangle md c name ab.
Proof. intros. rewrite bound_symbol_None, names_identical_refl. reflexivity. Qed.
Print Assumptions fallback_unrenamed_correct.

Theorem fallback_renamed_no_prefix_correct : forall md c can name ab,
  has_prefix md = false -> can <> name ->
  bound_symbol md false c can name None ab = llvm_mangle md c name ab.
Proof.
  intros md c can name ab Hp Hne. rewrite bound_symbol_None, (names_identical_neq _ _ _ _ Hne).
  symmetry. apply llvm_mangle_no_prefix, Hp.
Qed.
Print Assumptions fallback_renamed_no_prefix_correct.

(* ... and a renamed item on a prefixed target gets a verbatim attribute without the prefix
   (known finding: --distrust-clang-mangling and a keyword-named function on Mach-O) *)
Theorem fallback_renamed_prefixed_refuted : exists md can name,
  has_prefix md = true /\ can <> name /\
  bound_symbol md true CC_C can name None 0 <> llvm_mangle md CC_C name 0.
Proof.
  exists MachO, [116;121;112;101;95], [116;121;112;101]. split; [reflexivity|]. split.
  - discriminate.
  - vm_compute. discriminate.
Qed.
Print Assumptions fallback_renamed_prefixed_refuted.

Theorem lower_keeps_arity_and_order : forall s i,
  length (r_args (lower_sig s)) = length (s_args s) /\
  nth_error (r_args (lower_sig s)) i = option_map lower_arg (nth_error (s_args s) i).
Proof. intros s i. split; [apply map_length|apply nth_error_map]. Qed.
Print Assumptions lower_keeps_arity_and_order.

Theorem lower_variadic_tail : forall s, r_dots (lower_sig s) = s_variadic s.
Proof. reflexivity. Qed.
Print Assumptions lower_variadic_tail.

Theorem lower_return : forall s,
  (s_divergent s = true -> r_ret (lower_sig s) = RNever) /\
  (s_divergent s = false -> s_ret s = CVoid -> r_ret (lower_sig s) = RUnit) /\
  (forall t, s_divergent s = false -> s_ret s = CValue t -> r_ret (lower_sig s) = RValue t).
Proof.
  intro s. cbn [lower_sig r_ret]. unfold lower_ret. repeat split.
  - intros ->. reflexivity.
  - intros -> ->. reflexivity.
  - intros t -> ->. reflexivity.
Qed.
Print Assumptions lower_return.

Theorem lower_matches_c_adjustment : forall p, rarg_matches (c_adjust p) (lower_arg p).
Proof. intros [ec sc e|t|t]; cbn; auto. Qed.
Print Assumptions lower_matches_c_adjustment.
