From Coq Require Import NArith List Bool.
From BG Require Import C08.Model C08.Proofs.
Import ListNotations.
Open Scope N_scope.

(* SOUNDNESS: whenever a trait is derived on a composite, the Rust type of every member implements
   it (which is what #[derive] needs) — provided no member (transitively, by value) is a packed
   composite that cannot be Copy: such a type derives nothing at all, yet the analysis still
   answers "yes" for it (derive_sound_hole_refuted; known finding).
   [wf] keeps forward-declared composites out of the members, [elems_complete] (Proofs.v) out
   of the array elements (C rejects arrays of incomplete type); without the latter the statement
   is false in the model (derive_sound_needs_complete_elems) *)
Theorem derive_sound : forall o i fs tr,
  o_untagged o = true -> r_opaque i = false -> r_fwd i = false ->
  wf (TRec i fs) = true ->
  forallb elems_complete fs = true ->
  forallb (no_packed_noncopy o) fs = true ->
  mem tr (derives_of o (TRec i fs)) = true ->
  forallb (implements o tr) fs = true.
Proof. exact C08.Proofs.derive_sound. Qed.
Print Assumptions derive_sound.

Theorem derive_sound_needs_complete_elems : exists o i fs tr,
  o_untagged o = true /\ r_opaque i = false /\ r_fwd i = false /\ wf (TRec i fs) = true /\
  forallb (no_packed_noncopy o) fs = true /\
  mem tr (derives_of o (TRec i fs)) = true /\ forallb (implements o tr) fs = false.
Proof.
  (* an array of a forward-declared opaque composite *)
  exists all_opts, plain_info,
    [TArr (TRec {| r_union := false; r_fwd := true; r_packed := false; r_allowlisted := true;
                   r_opaque := true; r_big_unit := false; r_align := 4; r_excl := [] |} []) 1],
    Copy.
  repeat apply conj; reflexivity.
Qed.
Print Assumptions derive_sound_needs_complete_elems.

Theorem derive_sound_hole_refuted : exists o i fs tr,
  o_untagged o = true /\ r_opaque i = false /\ r_fwd i = false /\ wf (TRec i fs) = true /\
  mem tr (derives_of o (TRec i fs)) = true /\ forallb (implements o tr) fs = false.
Proof.
  (* a packed struct with a flexible array member: not Copy, so it derives nothing *)
  exists {| o_untagged := true; o_copy := true; o_debug := true; o_default := false;
            o_hash := false; o_partialord := false; o_ord := false; o_partialeq := false;
            o_eq := false; o_impl_debug := false |},
    plain_info,
    [TRec {| r_union := false; r_fwd := false; r_packed := true; r_allowlisted := true;
             r_opaque := false; r_big_unit := false; r_align := 1; r_excl := [] |}
          [TInt; TArr TInt 0]],
    Debug.
  repeat apply conj; reflexivity.
Qed.
Print Assumptions derive_sound_hole_refuted.

Definition opts_closed (o : opts) : Prop :=
  (o_ord o = true -> o_eq o = true /\ o_partialord o = true) /\
  (o_partialord o = true -> o_partialeq o = true) /\
  (o_eq o = true -> o_partialeq o = true).
Theorem supertraits_closed : forall o t, opts_closed o ->
  let d := derives_of o t in
  (mem Copy d = true -> mem Clone d = true) /\
  (mem Eq d = true -> mem PartialEq d = true) /\
  (mem PartialOrd d = true -> mem PartialEq d = true) /\
  (mem Ord d = true -> mem Eq d = true /\ mem PartialOrd d = true).
Proof. exact C08.Proofs.supertraits_closed. Qed.
Print Assumptions supertraits_closed.

(* `--with-derive-ord` or `--with-derive-partialord` alone is not a closed option set (known
   finding) *)
Theorem supertraits_open_refuted : exists o t,
  mem Ord (derives_of o t) = true /\ mem Eq (derives_of o t) = false /\
  (o_ord o = true /\ o_partialord o = true).
Proof.
  exists {| o_untagged := true; o_copy := true; o_debug := true; o_default := false;
            o_hash := false; o_partialord := true; o_ord := true; o_partialeq := false;
            o_eq := false; o_impl_debug := false |},
    (TRec plain_info [TInt]).
  repeat apply conj; reflexivity.
Qed.
Print Assumptions supertraits_open_refuted.

(* Eq and Ord never on anything that contains a float (HasFloat looks through opaque
   composites); Hash never on anything whose emitted Rust type shows a float: an opaque member is
   a blob of integers and hashes whatever its C fields were ([visible_float], Proofs.v) *)
Theorem eq_ord_hash_no_float : forall o i fs,
  o_untagged o = true -> r_opaque i = false ->
  let d := derives_of o (TRec i fs) in
  ((mem Eq d || mem Ord d) = true -> has_float (TRec i fs) = false) /\
  (mem Hash d = true -> visible_float (TRec i fs) = false).
Proof. exact C08.Proofs.eq_ord_hash_no_float. Qed.
Print Assumptions eq_ord_hash_no_float.

Theorem eq_ord_hash_no_float_no_opaque : forall o i fs,
  o_untagged o = true -> no_opaque (TRec i fs) = true ->
  let d := derives_of o (TRec i fs) in
  (mem Eq d || mem Ord d || mem Hash d) = true -> has_float (TRec i fs) = false.
Proof.
  intros o i fs Hu Hno d H.
  destruct (eq_ord_hash_no_float o i fs Hu (no_opaque_head i fs Hno)) as [H1 H2].
  apply orb_true_iff in H as [H|H]; [exact (H1 H)|].
  rewrite <- (visible_float_no_opaque _ Hno). exact (H2 H).
Qed.
Print Assumptions eq_ord_hash_no_float_no_opaque.

(* with an opaque member [has_float] and [visible_float] differ: Hash is derived over an opaque
   member holding a float *)
Theorem eq_ord_hash_no_float_opaque_refuted : exists o i fs,
  o_untagged o = true /\ r_opaque i = false /\
  (mem Eq (derives_of o (TRec i fs)) || mem Ord (derives_of o (TRec i fs))
   || mem Hash (derives_of o (TRec i fs))) = true /\
  has_float (TRec i fs) = true.
Proof.
  exists all_opts, plain_info,
    [TRec {| r_union := false; r_fwd := false; r_packed := false; r_allowlisted := true;
             r_opaque := true; r_big_unit := false; r_align := 8; r_excl := [] |} [TFloat]].
  repeat apply conj; reflexivity.
Qed.
Print Assumptions eq_ord_hash_no_float_opaque_refuted.

Theorem union_only_copy : forall o i fs tr,
  o_untagged o = true -> r_union i = true -> r_fwd i = false ->
  mem tr (derives_of o (TRec i fs)) = true -> tr = Copy \/ tr = Clone.
Proof.
  intros o i fs tr Hu Hun Hf H.
  apply (mem_derives_iff o i fs tr Hf) in H as (_ & _ & Hc & _).
  apply (can_rec_union o _ i fs Hu Hun) in Hc. destruct tr; try discriminate Hc; auto.
Qed.
Print Assumptions union_only_copy.

Theorem packed_needs_copy : forall o i fs,
  r_packed i = true -> r_fwd i = false ->
  derives_of o (TRec i fs) <> [] -> mem Copy (derives_of o (TRec i fs)) = true.
Proof. exact C08.Proofs.packed_needs_copy. Qed.
Print Assumptions packed_needs_copy.

Theorem blocklisted_member_blocks : forall o i fs j gs,
  o_untagged o = true -> r_opaque i = false -> r_fwd i = false ->
  In (TRec j gs) fs -> r_allowlisted j = false ->
  derives_of o (TRec i fs) = [].
Proof.
  intros o i fs j gs Hu Hop Hf Hin Hj. apply mem_none. intros tr.
  apply (member_blocks o i fs (TRec j gs) tr Hu Hop Hf Hin).
  rewrite (can_blocklisted o _ j gs Hj). discriminate.
Qed.
Print Assumptions blocklisted_member_blocks.

Theorem excluded_by_name : forall o i fs a,
  In a (r_excl i) -> can o a (TRec i fs) = No.
Proof.
  intros o i fs a Hin. apply can_excluded, existsb_exists.
  exists a. split; [exact Hin|apply atrait_eqb_refl].
Qed.
Print Assumptions excluded_by_name.

Theorem no_default_through_pointer_enum_or_long_array : forall o i fs f,
  o_untagged o = true -> r_opaque i = false -> r_fwd i = false -> In f fs ->
  (f = TPtr \/ f = TEnum \/ exists e n, f = TArr e n /\ RUST_DERIVE_IN_ARRAY_LIMIT < n) ->
  mem Default (derives_of o (TRec i fs)) = false.
Proof.
  intros o i fs f Hu Hop Hf Hin Hk. apply (member_blocks o i fs f Default Hu Hop Hf Hin).
  destruct Hk as [->|[->|(e & n & -> & Hn)]]; [discriminate..|].
  now apply can_default_long_array.
Qed.
Print Assumptions no_default_through_pointer_enum_or_long_array.

Theorem option_gates : forall o i fs, r_fwd i = false ->
  let d := derives_of o (TRec i fs) in
  (o_copy o = false -> mem Copy d = false /\ mem Clone d = false) /\
  (o_debug o = false -> mem Debug d = false) /\
  (o_default o = false -> mem Default d = false) /\
  (o_hash o = false -> mem Hash d = false) /\
  (o_partialord o = false -> mem PartialOrd d = false) /\
  (o_ord o = false -> mem Ord d = false) /\
  (o_partialeq o = false -> mem PartialEq d = false) /\
  (o_eq o = false -> mem Eq d = false).
Proof.
  intros o i fs Hf d.
  repeat split; intros; apply opt_off_not_derived; assumption.
Qed.
Print Assumptions option_gates.

Theorem plain_complete : forall o i fs tr,
  plain (TRec i fs) = true -> (r_packed i = false \/ o_copy o = true) ->
  (match tr with
   | Copy | Clone => o_copy o | Debug => o_debug o | Default => o_default o | Hash => o_hash o
   | PartialOrd => o_partialord o | Ord => o_ord o | PartialEq => o_partialeq o | Eq => o_eq o
   end) = true ->
  mem tr (derives_of o (TRec i fs)) = true.
Proof. exact C08.Proofs.plain_complete. Qed.
Print Assumptions plain_complete.

Theorem default_written_when_not_derived : forall o i fs,
  o_default o = true -> r_fwd i = false -> existsb (atrait_eqb ADefault) (r_excl i) = false ->
  mem Default (derives_of o (TRec i fs)) = false -> mem Default (manual o (TRec i fs)) = true.
Proof. exact C08.Proofs.default_written_when_not_derived. Qed.
Print Assumptions default_written_when_not_derived.

(* an opaque composite is emitted with a single blob field, which implements every trait but
   PartialOrd / Ord ([blob_implements]): with those two options off, whatever is derived is
   implemented (known finding: --with-derive-partialord on an opaque type) *)
Theorem opaque_blob_sound_partial : forall o i fs tr,
  r_opaque i = true -> o_partialord o = false -> o_ord o = false ->
  mem tr (derives_of o (TRec i fs)) = true -> blob_implements tr = true.
Proof.
  intros o i fs tr _ Hpo Ho H.
  destruct (r_fwd i) eqn:Hf.
  - rewrite (derives_fwd o i fs Hf) in H. destruct tr; try reflexivity; discriminate H.
  - destruct tr; try reflexivity; rewrite opt_off_not_derived in H by assumption; discriminate H.
Qed.
Print Assumptions opaque_blob_sound_partial.

Theorem opaque_blob_partialord_refuted : exists o i fs,
  r_opaque i = true /\ mem PartialOrd (derives_of o (TRec i fs)) = true /\ blob_implements PartialOrd = false.
Proof.
  exists {| o_untagged := true; o_copy := true; o_debug := true; o_default := false; o_hash := false;
            o_partialord := true; o_ord := false; o_partialeq := true; o_eq := false; o_impl_debug := false |},
         {| r_union := false; r_fwd := false; r_packed := false; r_allowlisted := true; r_opaque := true;
            r_big_unit := false; r_align := 8; r_excl := [] |}, [TInt].
  repeat apply conj; reflexivity.
Qed.
Print Assumptions opaque_blob_partialord_refuted.
