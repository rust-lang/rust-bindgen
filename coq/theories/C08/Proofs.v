From Coq Require Import NArith List Bool.
From BG Require Import C08.Model.
Import ListNotations.
Open Scope N_scope.

(* [ty] is a nested inductive: the principle Coq generates says nothing about the members of a
   composite *)
Section TyInd.
  Variable P : ty -> Prop.
  Hypothesis HInt : P TInt.
  Hypothesis HFloat : P TFloat.
  Hypothesis HEnum : P TEnum.
  Hypothesis HPtr : P TPtr.
  Hypothesis HFn : forall d, P (TFnPtr d).
  Hypothesis HArr : forall e n, P e -> P (TArr e n).
  Hypothesis HRec : forall i fs, (forall f, In f fs -> P f) -> P (TRec i fs).

  Fixpoint ty_ind' (t : ty) : P t :=
    match t with
    | TInt => HInt
    | TFloat => HFloat
    | TEnum => HEnum
    | TPtr => HPtr
    | TFnPtr d => HFn d
    | TArr e n => HArr e n (ty_ind' e)
    | TRec i fs =>
        HRec i fs ((fix members (l : list ty) : forall f, In f l -> P f :=
                      match l with
                      | [] => fun f H => match H with end
                      | g :: l' => fun f H =>
                          match H with
                          | or_introl E => eq_ind g P (ty_ind' g) f E
                          | or_intror H' => members l' f H'
                          end
                      end) fs)
    end.
End TyInd.

Lemma existsb_false_iff {A} (p : A -> bool) l :
  existsb p l = false <-> (forall x, In x l -> p x = false).
Proof.
  rewrite <- not_true_iff_false, existsb_exists. split.
  - intros H x Hin. apply not_true_iff_false. intros Hx. apply H. now exists x.
  - intros H (x & Hin & Hx). rewrite (H x Hin) in Hx. discriminate.
Qed.

Lemma existsb_ext_in {A} (p q : A -> bool) l :
  (forall x, In x l -> p x = q x) -> existsb p l = existsb q l.
Proof.
  induction l as [|x l IH]; intros H; [reflexivity|].
  cbn [existsb]. rewrite (H x (or_introl eq_refl)), IH; [reflexivity|].
  intros y Hy. apply H. now right.
Qed.

Lemma atrait_eqb_refl a : atrait_eqb a a = true.
Proof. destruct a; reflexivity. Qed.

Lemma trait_eqb_refl t : trait_eqb t t = true.
Proof. destruct t; reflexivity. Qed.

Lemma mem_app tr l1 l2 : mem tr (l1 ++ l2) = mem tr l1 || mem tr l2.
Proof. unfold mem. apply existsb_app. Qed.

Lemma mem_if tr (b : bool) l : mem tr (if b then l else []) = mem tr l && b.
Proof. destruct b; [now rewrite andb_true_r|now rewrite andb_false_r]. Qed.

Lemma mem_none l : (forall tr, mem tr l = false) -> l = [].
Proof.
  destruct l as [|tr l]; [reflexivity|]. intros H. specialize (H tr).
  cbn in H. now rewrite trait_eqb_refl in H.
Qed.

Lemma yes_true n : yes n = true <-> n = Yes.
Proof. unfold yes. apply N.eqb_eq. Qed.

(* The local fixes of Model.v are [forallb] and [existsb] written out, so the equations of the
   recursive definitions on a composite hold by conversion; the join in [can] gets a name. *)
Definition joinN (o : opts) (a : atrait) : list ty -> N :=
  fix join l := match l with [] => Yes | f :: l' => N.max (can o a f) (join l') end.

(* the cascade of rules for a composite, before the alignment adjustment *)
Definition rec_rule (o : opts) (a : atrait) (i : rinfo) (joined : N) : N :=
  if negb (r_allowlisted i) then No
  else if existsb (atrait_eqb a) (r_excl i) then No
  else if r_opaque i then
    (if negb (atrait_eqb a ACopy) && r_union i && o_untagged o then No else Yes)
  else if r_fwd i && negb (atrait_eqb a ADebug) then No
  else if r_union i && negb (atrait_eqb a ACopy) then (if o_untagged o then No else Yes)
  else if atrait_eqb a ADefault && r_big_unit i then No
  else joined.

Lemma can_rec o a i fs :
  can o a (TRec i fs) =
  let r := rec_rule o a i (joinN o a fs) in
  if (r =? Yes) && atrait_eqb a ADefault && (RUST_DERIVE_IN_ARRAY_LIMIT <? r_align i)
  then Manually else r.
Proof. reflexivity. Qed.

Lemma can_arr o a e n :
  can o a (TArr e n) =
  if negb (can o a e =? Yes) then No
  else if (n =? 0) && negb (incomplete_array_ok a) then No
  else match a with
       | ADefault => if RUST_DERIVE_IN_ARRAY_LIMIT <? n then Manually else Yes
       | _ => Yes
       end.
Proof. reflexivity. Qed.

Lemma has_float_rec i fs : has_float (TRec i fs) = existsb has_float fs.
Proof. reflexivity. Qed.

(* the floats bindgen's output actually shows: an opaque composite is emitted as a blob of
   integers, whatever its C fields were ([has_float] looks through opacity) *)
Fixpoint visible_float (t : ty) : bool :=
  match t with
  | TFloat => true
  | TArr e _ => visible_float e
  | TRec i fs =>
      negb (r_opaque i)
      && (fix any (l : list ty) : bool :=
            match l with [] => false | f :: l' => visible_float f || any l' end) fs
  | _ => false
  end.

Lemma visible_float_rec i fs :
  visible_float (TRec i fs) = negb (r_opaque i) && existsb visible_float fs.
Proof. reflexivity. Qed.

Fixpoint no_opaque (t : ty) : bool :=
  match t with
  | TArr e _ => no_opaque e
  | TRec i fs =>
      negb (r_opaque i)
      && (fix all (l : list ty) : bool :=
            match l with [] => true | f :: l' => no_opaque f && all l' end) fs
  | _ => true
  end.

Lemma no_opaque_rec i fs :
  no_opaque (TRec i fs) = negb (r_opaque i) && forallb no_opaque fs.
Proof. reflexivity. Qed.

Lemma no_opaque_head i fs : no_opaque (TRec i fs) = true -> r_opaque i = false.
Proof. rewrite no_opaque_rec. now intros [H%negb_true_iff _]%andb_true_iff. Qed.

Definition wf_member (f : ty) : bool :=
  wf f && match f with TRec j _ => negb (r_fwd j) | _ => true end.

Lemma wf_rec i fs : wf (TRec i fs) = forallb wf_member fs.
Proof. reflexivity. Qed.

Lemma plain_rec i fs :
  plain (TRec i fs) =
  negb (r_union i) && negb (r_fwd i) && r_allowlisted i && negb (r_opaque i) && negb (r_big_unit i)
  && (r_align i <=? RUST_DERIVE_IN_ARRAY_LIMIT) && match r_excl i with [] => true | _ => false end
  && forallb plain fs.
Proof. reflexivity. Qed.

Lemma no_packed_noncopy_rec o i fs :
  no_packed_noncopy o (TRec i fs) =
  (negb (r_packed i) || (o_copy o && yes (can o ACopy (TRec i fs))))
  && forallb (no_packed_noncopy o) fs.
Proof. reflexivity. Qed.

Lemma implements_rec o tr i fs :
  implements o tr (TRec i fs) =
  if negb (r_allowlisted i) then false
  else mem tr (derives_of o (TRec i fs)) || mem tr (manual o (TRec i fs)).
Proof. reflexivity. Qed.

Lemma implements_arr o tr e n :
  implements o tr (TArr e n) =
  if n =? 0 then match tr with Debug | Default => true | _ => false end
  else implements o tr e
       && match tr with Default => n <=? RUST_DERIVE_IN_ARRAY_LIMIT | _ => true end.
Proof. reflexivity. Qed.

Lemma max_yes a b : N.max a b = Yes <-> a = Yes /\ b = Yes.
Proof. unfold Yes. rewrite <- !N.le_0_r. apply N.max_lub_iff. Qed.

Lemma joinN_yes o a fs : joinN o a fs = Yes <-> (forall f, In f fs -> can o a f = Yes).
Proof.
  induction fs as [|f fs IH]; cbn [joinN In].
  - split; [intros _ g []|reflexivity].
  - rewrite max_yes, IH. split.
    + intros [Hf Hfs] g [<-|Hin]; auto.
    + intros H. split; auto.
Qed.

Lemma can_default_long_array o e n :
  RUST_DERIVE_IN_ARRAY_LIMIT < n -> can o ADefault (TArr e n) <> Yes.
Proof.
  intros Hn%N.ltb_lt. rewrite can_arr, Hn.
  destruct (negb (can o ADefault e =? Yes)); [discriminate|].
  destruct ((n =? 0) && negb (incomplete_array_ok ADefault)); discriminate.
Qed.

(* the alignment adjustment only turns Yes into Manually *)
Lemma can_rec_yes o a i fs :
  can o a (TRec i fs) = Yes -> rec_rule o a i (joinN o a fs) = Yes.
Proof. rewrite can_rec. cbv zeta. now destruct (_ && _ && _). Qed.

(* a rule that answers No is passed *)
Lemma if_no (b : bool) x : (if b then No else x) = Yes -> x = Yes.
Proof. now destruct b. Qed.

Lemma can_rec_not_excl o a i fs :
  can o a (TRec i fs) = Yes -> existsb (atrait_eqb a) (r_excl i) = false.
Proof.
  intros H%can_rec_yes%if_no. now destruct (existsb (atrait_eqb a) (r_excl i)).
Qed.

Lemma can_rec_union o a i fs :
  o_untagged o = true -> r_union i = true ->
  can o a (TRec i fs) = Yes -> a = ACopy.
Proof.
  intros Hu Hun H%can_rec_yes. unfold rec_rule in H. rewrite Hu, Hun in H.
  do 2 apply if_no in H.
  (* for any other analysis the rule for unions answers No, opaque or not *)
  destruct a; [reflexivity|exfalso..];
    (destruct (r_opaque i); [discriminate H|]); apply if_no in H; discriminate H.
Qed.

Lemma can_blocklisted o a j gs : r_allowlisted j = false -> can o a (TRec j gs) = No.
Proof. intros H. rewrite can_rec. unfold rec_rule. rewrite H. reflexivity. Qed.

Lemma can_excluded o a i fs :
  existsb (atrait_eqb a) (r_excl i) = true -> can o a (TRec i fs) = No.
Proof.
  intros H. rewrite can_rec. unfold rec_rule. rewrite H. now destruct (negb (r_allowlisted i)).
Qed.

Lemma can_rec_members o a i fs f :
  o_untagged o = true -> r_opaque i = false ->
  can o a (TRec i fs) = Yes -> In f fs -> can o a f = Yes.
Proof.
  intros Hu Hop H%can_rec_yes. apply joinN_yes.
  unfold rec_rule in H. rewrite Hu, Hop in H. now do 5 apply if_no in H.
Qed.

(* the analysis that governs a trait, the option that enables it, and the float side condition *)
Definition gov (tr : trait) : atrait :=
  match tr with
  | Copy | Clone => ACopy | Debug => ADebug | Default => ADefault | Hash => AHash
  | PartialOrd | Ord | PartialEq | Eq => APartialEq
  end.
Definition opt_on (o : opts) (tr : trait) : bool :=
  match tr with
  | Copy | Clone => o_copy o | Debug => o_debug o | Default => o_default o | Hash => o_hash o
  | PartialOrd => o_partialord o | Ord => o_ord o | PartialEq => o_partialeq o | Eq => o_eq o
  end.
Definition needs_nofloat (tr : trait) : bool :=
  match tr with Ord | Eq => true | _ => false end.

(* the packed early return is not taken *)
Definition packed_ok (o : opts) (i : rinfo) (fs : list ty) : bool :=
  negb (negb (o_copy o && yes (can o ACopy (TRec i fs))) && r_packed i).

Lemma derives_fwd o i fs : r_fwd i = true -> derives_of o (TRec i fs) = [Debug].
Proof. intros Hf. unfold derives_of. now rewrite Hf. Qed.

Lemma mem_derives o i fs tr :
  r_fwd i = false ->
  mem tr (derives_of o (TRec i fs))
  = packed_ok o i fs && (opt_on o tr && yes (can o (gov tr) (TRec i fs))
                         && (if needs_nofloat tr then negb (has_float (TRec i fs)) else true)).
Proof.
  intros Hf. unfold derives_of, packed_ok. rewrite Hf.
  destruct (negb (o_copy o && yes (can o ACopy (TRec i fs))) && r_packed i); [reflexivity|].
  rewrite !mem_app, !mem_if.
  (* on a given trait all slots but its own compute away *)
  destruct tr; cbn [mem existsb trait_eqb gov opt_on needs_nofloat negb orb andb];
    rewrite ?orb_false_r, ?andb_true_r; reflexivity.
Qed.

Lemma mem_derives_iff o i fs tr :
  r_fwd i = false ->
  mem tr (derives_of o (TRec i fs)) = true <->
  packed_ok o i fs = true /\ opt_on o tr = true /\ can o (gov tr) (TRec i fs) = Yes /\
  (needs_nofloat tr = true -> has_float (TRec i fs) = false).
Proof.
  intros Hf. rewrite (mem_derives o i fs tr Hf). split.
  - intros [Hp [[Ho Hc%yes_true]%andb_prop Hn]%andb_prop]%andb_prop.
    repeat apply conj; trivial. intros E. rewrite E in Hn. apply negb_true_iff, Hn.
  - intros (-> & -> & ->%yes_true & Hn).
    destruct (needs_nofloat tr); [rewrite (Hn eq_refl)|]; reflexivity.
Qed.

Lemma derives_transfer o i fs tr tr' :
  r_fwd i = false -> mem tr (derives_of o (TRec i fs)) = true ->
  gov tr = gov tr' ->
  (opt_on o tr = true -> opt_on o tr' = true) ->
  (needs_nofloat tr' = true -> needs_nofloat tr = true) ->
  mem tr' (derives_of o (TRec i fs)) = true.
Proof.
  intros Hf H Hg Ho Hn. apply (mem_derives_iff o i fs _ Hf) in H as (Hp & Hopt & Hc & Hfl).
  apply (mem_derives_iff o i fs _ Hf). rewrite <- Hg. repeat apply conj; auto.
Qed.

Lemma opt_off_not_derived o i fs tr :
  r_fwd i = false -> opt_on o tr = false -> mem tr (derives_of o (TRec i fs)) = false.
Proof. intros Hf H. rewrite (mem_derives o i fs tr Hf), H. apply andb_false_r. Qed.

Lemma member_blocks o i fs f tr :
  o_untagged o = true -> r_opaque i = false -> r_fwd i = false ->
  In f fs -> can o (gov tr) f <> Yes -> mem tr (derives_of o (TRec i fs)) = false.
Proof.
  intros Hu Hop Hf Hin Hc. apply not_true_iff_false.
  intros (_ & _ & H & _)%(mem_derives_iff o i fs tr Hf).
  exact (Hc (can_rec_members o _ i fs f Hu Hop H Hin)).
Qed.

(* an array element is not a forward-declared composite (C: an array of incomplete type is
   ill-formed), through nested arrays; [wf] asks this of members only *)
Fixpoint elems_complete (t : ty) : bool :=
  match t with
  | TArr e _ => elems_complete e && match e with TRec j _ => negb (r_fwd j) | _ => true end
  | _ => true
  end.

Lemma member_sound o tr f :
  elems_complete f = true ->
  no_packed_noncopy o f = true ->
  match f with TRec j _ => r_fwd j = false | _ => True end ->
  opt_on o tr = true ->
  can o (gov tr) f = Yes ->
  (needs_nofloat tr = true -> has_float f = false) ->
  implements o tr f = true.
Proof.
  induction f as [| | | |d|e IH n|j gs]; intros Hec Hnp Hfw Hopt Hcan Hnf.
  (* scalars, pointers, callbacks: rustc's built-in impls cover what the rules grant *)
  1-5: try destruct d; destruct tr; try reflexivity; try discriminate Hcan;
    discriminate (Hnf eq_refl).
  - rewrite implements_arr. rewrite can_arr in Hcan.
    destruct (can o (gov tr) e =? Yes) eqn:Ee; [|discriminate]. apply N.eqb_eq in Ee.
    cbn [negb] in Hcan. destruct (n =? 0).
    + destruct tr; try reflexivity; discriminate.
    + cbn [elems_complete] in Hec. apply andb_true_iff in Hec as [Hec1 Hec2].
      rewrite IH; trivial.
      * destruct tr; try reflexivity. cbn in Hcan |- *.
        destruct (N.ltb_spec RUST_DERIVE_IN_ARRAY_LIMIT n); [discriminate|now apply N.leb_le].
      * destruct e; trivial. now apply negb_true_iff.
  - rewrite implements_rec. destruct (r_allowlisted j) eqn:Hal;
      [|rewrite (can_blocklisted o _ j gs Hal) in Hcan; discriminate Hcan].
    apply orb_true_iff. left.
    apply (mem_derives_iff o j gs tr Hfw). repeat split; trivial.
    rewrite no_packed_noncopy_rec in Hnp. apply andb_true_iff in Hnp as [Hnp _]. unfold packed_ok.
    destruct (r_packed j); [|now rewrite andb_false_r].
    cbn [negb orb] in Hnp. now rewrite Hnp.
Qed.

Lemma derive_sound : forall o i fs tr,
  o_untagged o = true -> r_opaque i = false -> r_fwd i = false ->
  wf (TRec i fs) = true ->
  forallb elems_complete fs = true ->
  forallb (no_packed_noncopy o) fs = true ->
  mem tr (derives_of o (TRec i fs)) = true ->
  forallb (implements o tr) fs = true.
Proof.
  intros o i fs tr Hu Hop Hfw Hwf Hec Hnp Hmem.
  apply (mem_derives_iff o i fs tr Hfw) in Hmem as (_ & Hopt & Hcan & Hnf).
  rewrite wf_rec in Hwf. rewrite forallb_forall in *. intros f Hin.
  apply member_sound; auto.
  - specialize (Hwf f Hin). apply andb_true_iff in Hwf as [_ H].
    destruct f; trivial. now apply negb_true_iff.
  - exact (can_rec_members o _ i fs f Hu Hop Hcan Hin).
  - intros Hn. specialize (Hnf Hn). rewrite has_float_rec in Hnf.
    exact (proj1 (existsb_false_iff _ _) Hnf f Hin).
Qed.

Definition opts_closed (o : opts) : Prop :=
  (o_ord o = true -> o_eq o = true /\ o_partialord o = true) /\
  (o_partialord o = true -> o_partialeq o = true) /\
  (o_eq o = true -> o_partialeq o = true).

Lemma supertraits_closed : forall o t, opts_closed o ->
  let d := derives_of o t in
  (mem Copy d = true -> mem Clone d = true) /\
  (mem Eq d = true -> mem PartialEq d = true) /\
  (mem PartialOrd d = true -> mem PartialEq d = true) /\
  (mem Ord d = true -> mem Eq d = true /\ mem PartialOrd d = true).
Proof.
  intros o t [Hord [Hpo Heq]] d. subst d.
  destruct t as [| | | |d0|e n|i fs]; try (repeat split; discriminate).
  destruct (r_fwd i) eqn:Hf.
  - rewrite (derives_fwd o i fs Hf). repeat split; discriminate.
  - (* each implication leads to a trait with the same analysis, whose option is on by
       [opts_closed] and which asks no more of the floats *)
    repeat split; intros;
      (eapply derives_transfer; [exact Hf|eassumption|..]); cbn; try reflexivity; tauto.
Qed.

Lemma hash_no_visible_float o t :
  o_untagged o = true -> can o AHash t = Yes -> visible_float t = false.
Proof.
  intros Hu. induction t as [| | | |d|e n IH|i fs IH] using ty_ind'; intros H;
    try reflexivity.
  - discriminate H.
  - rewrite can_arr in H. cbn [visible_float].
    destruct (can o AHash e =? Yes) eqn:E; [|discriminate H].
    apply N.eqb_eq in E. exact (IH E).
  - rewrite visible_float_rec. destruct (r_opaque i) eqn:Hop; [reflexivity|].
    apply existsb_false_iff. intros f Hin.
    exact (IH f Hin (can_rec_members o _ i fs f Hu Hop H Hin)).
Qed.

Lemma visible_float_le t : visible_float t = true -> has_float t = true.
Proof.
  induction t as [| | | |d|e n IH|i fs IH] using ty_ind'; intros H; try discriminate H;
    try reflexivity.
  - exact (IH H).
  - rewrite visible_float_rec in H. apply andb_true_iff in H as [_ H].
    rewrite has_float_rec. apply existsb_exists in H as (f & Hin & Hf).
    apply existsb_exists. exists f. auto.
Qed.

Lemma visible_float_no_opaque t : no_opaque t = true -> visible_float t = has_float t.
Proof.
  induction t as [| | | |d|e n IH|i fs IH] using ty_ind'; intros H; try reflexivity.
  - exact (IH H).
  - rewrite no_opaque_rec in H. apply andb_true_iff in H as [H1 H2].
    rewrite visible_float_rec, has_float_rec, H1. rewrite forallb_forall in H2.
    apply existsb_ext_in. auto.
Qed.

Lemma derived_no_float o i fs tr :
  needs_nofloat tr = true -> mem tr (derives_of o (TRec i fs)) = true ->
  has_float (TRec i fs) = false.
Proof.
  intros Hn H. destruct (r_fwd i) eqn:Hf.
  - rewrite (derives_fwd o i fs Hf) in H. now destruct tr.
  - apply (mem_derives_iff o i fs tr Hf) in H as (_ & _ & _ & H). exact (H Hn).
Qed.

Lemma eq_ord_hash_no_float : forall o i fs,
  o_untagged o = true -> r_opaque i = false ->
  let d := derives_of o (TRec i fs) in
  ((mem Eq d || mem Ord d) = true -> has_float (TRec i fs) = false) /\
  (mem Hash d = true -> visible_float (TRec i fs) = false).
Proof.
  intros o i fs Hu Hop d. subst d. split.
  - intros [H|H]%orb_true_iff; now apply derived_no_float in H.
  - destruct (r_fwd i) eqn:Hf; [now rewrite (derives_fwd o i fs Hf)|].
    intros (_ & _ & Hc & _)%(mem_derives_iff o i fs Hash Hf).
    exact (hash_no_visible_float o _ Hu Hc).
Qed.

Lemma packed_needs_copy : forall o i fs,
  r_packed i = true -> r_fwd i = false ->
  derives_of o (TRec i fs) <> [] -> mem Copy (derives_of o (TRec i fs)) = true.
Proof.
  intros o i fs Hp Hf H. rewrite (mem_derives o i fs Copy Hf). cbn [gov opt_on needs_nofloat].
  unfold derives_of, packed_ok in *. rewrite Hf, Hp in *.
  destruct (o_copy o && yes (can o ACopy (TRec i fs))); [reflexivity|now destruct H].
Qed.

Lemma plain_rec_inv i fs :
  plain (TRec i fs) = true ->
  r_union i = false /\ r_fwd i = false /\ r_allowlisted i = true /\ r_opaque i = false /\
  r_big_unit i = false /\ (RUST_DERIVE_IN_ARRAY_LIMIT <? r_align i) = false /\ r_excl i = [] /\
  (forall f, In f fs -> plain f = true).
Proof.
  rewrite plain_rec.
  intros [[[[[[[H1%negb_true_iff H2%negb_true_iff]%andb_true_iff H3]%andb_true_iff
    H4%negb_true_iff]%andb_true_iff H5%negb_true_iff]%andb_true_iff H6]%andb_true_iff
    H7]%andb_true_iff H8]%andb_true_iff.
  rewrite N.ltb_antisym, H6. rewrite forallb_forall in H8.
  destruct (r_excl i); [auto 10|discriminate].
Qed.

Lemma plain_can o t :
  plain t = true -> (forall a, can o a t = Yes) /\ has_float t = false.
Proof.
  induction t as [| | | |d|e n IH|i fs IH] using ty_ind'; intros H; try discriminate H.
  - split; reflexivity.
  - cbn [plain] in H. apply andb_true_iff in H as [[H1 H2]%andb_true_iff H3].
    destruct (IH H1) as [Hc Hfl]. split; [|exact Hfl].
    intros a. rewrite can_arr, Hc, N.ltb_antisym, H3.
    replace (n =? 0) with false by (symmetry; apply N.eqb_neq, N.neq_0_lt_0, N.ltb_lt, H2).
    destruct a; reflexivity.
  - destruct (plain_rec_inv i fs H) as (H1 & H2 & H3 & H4 & H5 & H6 & H7 & Hpl).
    split.
    + intros a. rewrite can_rec. unfold rec_rule.
      replace (joinN o a fs) with Yes
        by (symmetry; apply joinN_yes; intros f Hin; now apply IH, Hpl).
      rewrite H1, H2, H3, H4, H5, H6, H7, !andb_false_r. reflexivity.
    + rewrite has_float_rec. apply existsb_false_iff. intros f Hin. now apply IH, Hpl.
Qed.

Lemma plain_complete : forall o i fs tr,
  plain (TRec i fs) = true -> (r_packed i = false \/ o_copy o = true) ->
  (match tr with
   | Copy | Clone => o_copy o | Debug => o_debug o | Default => o_default o | Hash => o_hash o
   | PartialOrd => o_partialord o | Ord => o_ord o | PartialEq => o_partialeq o | Eq => o_eq o
   end) = true ->
  mem tr (derives_of o (TRec i fs)) = true.
Proof.
  intros o i fs tr Hpl Hpk Hopt.
  destruct (plain_can o _ Hpl) as [Hc Hfl].
  destruct (plain_rec_inv i fs Hpl) as [_ [Hf _]].
  apply (mem_derives_iff o i fs tr Hf). repeat split; auto.
  unfold packed_ok. rewrite Hc. destruct Hpk as [->| ->]; [now rewrite andb_false_r|reflexivity].
Qed.

Lemma default_written_when_not_derived : forall o i fs,
  o_default o = true -> r_fwd i = false -> existsb (atrait_eqb ADefault) (r_excl i) = false ->
  mem Default (derives_of o (TRec i fs)) = false -> mem Default (manual o (TRec i fs)) = true.
Proof.
  intros o i fs Hd Hf Hx Hm. unfold manual. rewrite Hm, Hd, Hf, Hx. reflexivity.
Qed.

Definition plain_info : rinfo :=
  {| r_union := false; r_fwd := false; r_packed := false; r_allowlisted := true;
     r_opaque := false; r_big_unit := false; r_align := 4; r_excl := [] |}.
Definition all_opts : opts :=
  {| o_untagged := true; o_copy := true; o_debug := true; o_default := true; o_hash := true;
     o_partialord := true; o_ord := true; o_partialeq := true; o_eq := true;
     o_impl_debug := false |}.

Definition ex_opaque : rinfo :=
  {| r_union := false; r_fwd := false; r_packed := false; r_allowlisted := true;
     r_opaque := true; r_big_unit := false; r_align := 8; r_excl := [] |}.
Definition ex_union : rinfo :=
  {| r_union := true; r_fwd := false; r_packed := false; r_allowlisted := true;
     r_opaque := false; r_big_unit := false; r_align := 4; r_excl := [] |}.
Definition ex_fields : list ty :=
  [TInt; TArr TFloat 4; TFnPtr false; TRec ex_opaque [];
   TRec plain_info [TInt; TArr (TRec plain_info [TInt; TPtr]) 3];
   TRec ex_union [TInt; TFloat]].

(* a struct holding an int, a float array, a callback, an opaque composite, a struct with an
   array of structs and a union satisfies every hypothesis of [derive_sound] and derives
   something; the second example has a flexible array member *)
Example derive_sound_nonvacuous :
  o_untagged all_opts = true /\ r_opaque plain_info = false /\ r_fwd plain_info = false /\
  wf (TRec plain_info ex_fields) = true /\
  forallb elems_complete ex_fields = true /\
  forallb (no_packed_noncopy all_opts) ex_fields = true /\
  derives_of all_opts (TRec plain_info ex_fields) = [Copy; Clone] /\
  forallb (implements all_opts Copy) ex_fields = true.
Proof. repeat apply conj; reflexivity. Qed.

Example derive_sound_nonvacuous_many :
  let fs := [TInt; TArr TInt 0; TRec plain_info [TInt; TArr (TRec plain_info [TInt]) 3]] in
  wf (TRec plain_info fs) = true /\
  forallb elems_complete fs = true /\
  forallb (no_packed_noncopy all_opts) fs = true /\
  derives_of all_opts (TRec plain_info fs) = [Debug; Default] /\
  forallb (implements all_opts Debug) fs = true /\
  forallb (implements all_opts Default) fs = true.
Proof. repeat apply conj; reflexivity. Qed.

Example derive_sound_instance :
  forallb (implements all_opts Clone) ex_fields = true.
Proof.
  apply (derive_sound all_opts plain_info ex_fields Clone); vm_compute; reflexivity.
Qed.

Example plain_complete_two_level :
  let t := TRec plain_info [TInt; TArr TInt 32; TRec plain_info [TInt; TArr (TArr TInt 2) 3]] in
  plain t = true /\
  derives_of all_opts t = [Copy; Clone; Debug; Default; Hash; PartialOrd; Ord; PartialEq; Eq].
Proof. repeat apply conj; reflexivity. Qed.

Example plain_complete_instance :
  mem Ord (derives_of all_opts
             (TRec plain_info [TInt; TRec plain_info [TInt; TArr TInt 7]])) = true.
Proof. apply plain_complete; [vm_compute; reflexivity | left; reflexivity | reflexivity]. Qed.
