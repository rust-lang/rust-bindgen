From Coq Require Import NArith List Bool Permutation.
From BG Require Import C07.Model C07.Proofs.
From BGgen Require Import C07_Table.
Import ListNotations.
Open Scope N_scope.

Theorem step_inflationary : forall r st n, st n <= step r st n.
Proof. exact Proofs.step_inflationary. Qed.
Print Assumptions step_inflationary.

Theorem step_monotone : forall r s t n,
  (forall m, s m <= t m) -> step r s n <= step r t n.
Proof. exact Proofs.step_monotone. Qed.
Print Assumptions step_monotone.

Definition rule_bounded (a : analysis) : Prop :=
  forall it, base (a_rule a it) <= 2 /\
             forall m c, In (m, IfPresent c) (reads (a_rule a it)) -> c <= 2.

Theorem analyze_terminates : forall g a allow,
  NoDup allow -> rule_bounded a ->
  exists st, analyze (fuel_for g allow) g a allow = Some st.
Proof. intros g a allow _. apply Proofs.analyze_total. Qed.
Print Assumptions analyze_terminates.

Theorem analyze_fixpoint : forall fuel g a allow st,
  NoDup allow -> reads_subscribed g a allow ->
  analyze fuel g a allow = Some st ->
  is_fixpoint g a allow st /\ supported allow st.
Proof. intros fuel g a allow st _. apply Proofs.analyze_fixed. Qed.
Print Assumptions analyze_fixpoint.

Theorem analyze_least : forall fuel g a allow st t,
  analyze fuel g a allow = Some st ->
  is_fixpoint g a allow t -> below allow st t.
Proof. intros fuel g a allow st t Hrun Hfix n _. exact (Proofs.analyze_below _ _ _ _ _ _ Hrun Hfix n). Qed.
Print Assumptions analyze_least.

(* the visiting order is irrelevant: any permutation of the allowlisted items
   (it fixes the initial work list AND the order inside every dependency vector)
   gives the same facts *)
Theorem schedule_independent : forall fuel fuel' g a allow allow' st st',
  NoDup allow -> Permutation allow allow' ->
  reads_subscribed g a allow ->
  analyze fuel g a allow = Some st -> analyze fuel' g a allow' = Some st' ->
  forall n, st n = st' n.
Proof. exact Proofs.schedule_independent. Qed.
Print Assumptions schedule_independent.

(* declaration order = item numbering: the graph with its items renumbered by p; no theorem
   is stated about it *)
Definition rename_ir (p : N -> N) (pinv : N -> N) (rn : item -> item) (g : ir) : ir :=
  fun n => option_map rn (g (pinv n)).

Theorem least_fixpoint_unique : forall g a allow s t,
  is_fixpoint g a allow s -> supported allow s -> (forall u, is_fixpoint g a allow u -> below allow s u) ->
  is_fixpoint g a allow t -> supported allow t -> (forall u, is_fixpoint g a allow u -> below allow t u) ->
  forall n, s n = t n.
Proof.
  intros g a allow s t Hfs Hss Hls Hft Hst Hlt n.
  destruct (in_dec N.eq_dec n allow) as [Hin|Hout].
  - apply N.le_antisymm; [exact (Hls t Hft n Hin)|exact (Hlt s Hfs n Hin)].
  - rewrite (Hss n Hout), (Hst n Hout). reflexivity.
Qed.
Print Assumptions least_fixpoint_unique.

(* the five analyses; their edge filters are regenerated from the source (BGgen.C07_Table) *)
Definition A_vtable := {| a_rule := rule_vtable; a_filter := filter_vtable |}.
Definition A_sizedness := {| a_rule := rule_sizedness; a_filter := filter_sizedness |}.
Definition A_destructor := {| a_rule := rule_destructor; a_filter := filter_destructor |}.
Definition A_float := {| a_rule := rule_float; a_filter := filter_float |}.
Definition A_tparam_array := {| a_rule := rule_tparam_array; a_filter := filter_tparam_array |}.

Theorem rules_bounded :
  rule_bounded A_vtable /\ rule_bounded A_sizedness /\ rule_bounded A_destructor /\
  rule_bounded A_float /\ rule_bounded A_tparam_array.
Proof.
  exact (conj Proofs.rule_vtable_bounded (conj Proofs.rule_sizedness_bounded
          (conj Proofs.rule_destructor_bounded
             (conj Proofs.rule_float_bounded Proofs.rule_tparam_array_bounded)))).
Qed.
Print Assumptions rules_bounded.

(* every fact a rule reads arrives over an edge kind its consider_edge accepts, at every regular
   item.  [Proofs.regular_<analysis> it] says just that of the one item; that the items not named
   like a <stdint.h> type are regular when they are not opaque, or are opaque but of a kind traced
   all the same, is Proofs.regular_<analysis>_sufficient', and there the rules and the regenerated
   filters come in.  The items of Proofs.irregular_* are not regular *)
Theorem vtable_subscribed : forall g allow,
  (forall n, In n allow -> Proofs.regular_vtable (get g n) = true) ->
  reads_subscribed g A_vtable allow.
Proof. intros g allow. apply Proofs.gen_subscribed. Qed.
Print Assumptions vtable_subscribed.

Theorem sizedness_subscribed : forall g allow,
  (forall n, In n allow -> Proofs.regular_sizedness (get g n) = true) ->
  reads_subscribed g A_sizedness allow.
Proof. intros g allow. apply Proofs.gen_subscribed. Qed.
Print Assumptions sizedness_subscribed.

Theorem destructor_subscribed : forall g allow,
  (forall n, In n allow -> Proofs.regular_destructor (get g n) = true) ->
  reads_subscribed g A_destructor allow.
Proof. intros g allow. apply Proofs.gen_subscribed. Qed.
Print Assumptions destructor_subscribed.

Theorem float_subscribed : forall g allow,
  (forall n, In n allow -> Proofs.regular_float (get g n) = true) ->
  reads_subscribed g A_float allow.
Proof. intros g allow. apply Proofs.gen_subscribed. Qed.
Print Assumptions float_subscribed.

Theorem tparam_array_subscribed : forall g allow,
  (forall n, In n allow -> Proofs.regular_tparam_array (get g n) = true) ->
  reads_subscribed g A_tparam_array allow.
Proof. intros g allow. apply Proofs.gen_subscribed. Qed.
Print Assumptions tparam_array_subscribed.

(* without the regularity hypothesis the model's answer depends on the visiting order: here
   through a stdint-named alias of float; that answer is not a fixed point either
   (Proofs.refute_not_fixpoint) *)
Theorem subscription_refuted : exists g allow allow' st st',
  Permutation allow allow' /\
  analyze (fuel_for g allow) g A_float allow = Some st /\
  analyze (fuel_for g allow') g A_float allow' = Some st' /\
  (exists n, st n <> st' n).
Proof.
  exists refute_g, [1; 2], [2; 1]. eexists. eexists.
  split; [apply perm_swap|].
  split; [vm_compute; reflexivity|].
  split; [vm_compute; reflexivity|].
  exists 1. vm_compute. discriminate.
Qed.
Print Assumptions subscription_refuted.
