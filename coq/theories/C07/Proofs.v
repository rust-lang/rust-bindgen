(* C07 — the theory behind Properties.v.  Stdlib only, no axioms, no functional
   extensionality (states are only ever compared pointwise).  The first two lemmas also
   serve the theories of C07/TParams and of C09. *)
From Coq Require Import NArith PeanoNat List Bool Permutation Lia.
From BG Require Import C07.Model C07.Worklist.
From BGgen Require Import C07_Table.
Import ListNotations.
Open Scope N_scope.

Lemma mem_In : forall n l, mem n l = true <-> In n l.
Proof.
  intros n l. unfold mem. rewrite existsb_exists. split.
  - intros [x [Hx E]]. apply N.eqb_eq in E. subst x. exact Hx.
  - intros Hn. exists n. split; [exact Hn|apply N.eqb_refl].
Qed.

Lemma NoDup_app_disj : forall (A : Type) (a l : list A),
  NoDup a -> NoDup l -> (forall x, In x a -> ~ In x l) -> NoDup (a ++ l).
Proof.
  intros A a l Ha Hl. induction Ha as [|y a Hy Ha IH]; intros Hd; [exact Hl|].
  cbn [app]. constructor.
  - intros H. apply in_app_or in H. destruct H as [H|H]; [exact (Hy H)|].
    exact (Hd y (or_introl eq_refl) H).
  - apply IH. intros x Hx. apply Hd. right. exact Hx.
Qed.

Definition read_max (st : N -> N) (l : list (N * transfer)) : N :=
  fold_right (fun mt acc => N.max (apply_tr (snd mt) (st (fst mt))) acc) 0 l.

Lemma step_unfold : forall r st n,
  step r st n = N.max (st n) (N.max (base r) (read_max st (reads r))).
Proof. reflexivity. Qed.

Lemma read_max_cons : forall st m tr l,
  read_max st ((m, tr) :: l) = N.max (apply_tr tr (st m)) (read_max st l).
Proof. reflexivity. Qed.

Lemma apply_tr_mono : forall tr u v, u <= v -> apply_tr tr u <= apply_tr tr v.
Proof.
  intros [|c] u v Huv; cbn [apply_tr]; [exact Huv|].
  destruct (N.eqb_spec u 0) as [_|Hu]; [apply N.le_0_l|].
  destruct (N.eqb_spec v 0) as [->|_]; [|apply N.le_refl].
  apply N.le_0_r in Huv. contradiction.
Qed.

Lemma read_max_mono : forall s t l, (forall m, s m <= t m) -> read_max s l <= read_max t l.
Proof.
  intros s t l Hst. induction l as [|[m tr] l IH]; [apply N.le_refl|]. rewrite !read_max_cons.
  apply N.max_le_compat; [apply apply_tr_mono, Hst|exact IH].
Qed.

Lemma read_max_bound : forall st l,
  (forall m, st m <= 2) ->
  (forall m c, In (m, IfPresent c) l -> c <= 2) -> read_max st l <= 2.
Proof.
  intros st l Hst Hl. induction l as [|[m tr] l IH]; [discriminate|]. rewrite read_max_cons.
  apply N.max_lub.
  - destruct tr as [|c]; cbn [apply_tr]; [apply Hst|].
    destruct (st m =? 0); [discriminate|]. apply (Hl m c). left. reflexivity.
  - apply IH. intros m' c Hin. apply (Hl m' c). right. exact Hin.
Qed.

Lemma step_inflationary : forall r st n, st n <= step r st n.
Proof. intros r st n. apply N.le_max_l. Qed.

Lemma step_monotone : forall r s t n,
  (forall m, s m <= t m) -> step r s n <= step r t n.
Proof.
  intros r s t n Hst. rewrite !step_unfold.
  apply N.max_le_compat; [apply Hst|]. apply N.max_le_compat_l, read_max_mono, Hst.
Qed.

Definition bounded (r : rule) : Prop :=
  base r <= 2 /\ forall m c, In (m, IfPresent c) (reads r) -> c <= 2.

Lemma step_bound : forall r st n, bounded r -> (forall m, st m <= 2) -> step r st n <= 2.
Proof.
  intros r st n [Hb Hr] Hst. rewrite step_unfold.
  repeat apply N.max_lub; [apply Hst|exact Hb|apply read_max_bound; assumption].
Qed.

(* that is, [forall it, bounded (a_rule a it)] *)
Definition rule_bounded (a : analysis) : Prop :=
  forall it, base (a_rule a it) <= 2 /\
             forall m c, In (m, IfPresent c) (reads (a_rule a it)) -> c <= 2.

Lemma read_max_local : forall s t l,
  (forall m, In m (map fst l) -> s m = t m) -> read_max s l = read_max t l.
Proof.
  intros s t l. induction l as [|[m tr] l IH]; intros H; [reflexivity|].
  rewrite !read_max_cons, IH, (H m); [reflexivity|left; reflexivity|].
  intros m' Hm'. apply H. right. exact Hm'.
Qed.

Lemma step_local : forall r s t n,
  s n = t n -> (forall m, In m (map fst (reads r)) -> s m = t m) -> step r s n = step r t n.
Proof.
  intros r s t n Hn Hr. rewrite !step_unfold, Hn, (read_max_local s t) by exact Hr. reflexivity.
Qed.

(* what [run] asks of a popped node: its new fact, [None] when that is the fact it has *)
Definition next (g : ir) (a : analysis) (st : N -> N) (n : N) : option N :=
  let v := step (a_rule a (get g n)) st n in if v =? st n then None else Some v.

Lemma next_None : forall g a st n,
  next g a st n = None -> step (a_rule a (get g n)) st n = st n.
Proof.
  intros g a st n. unfold next. cbv zeta.
  destruct (N.eqb_spec (step (a_rule a (get g n)) st n) (st n)); [auto|discriminate].
Qed.

Lemma next_Some : forall g a st n v,
  next g a st n = Some v -> v = step (a_rule a (get g n)) st n /\ v <> st n.
Proof.
  intros g a st n v. unfold next. cbv zeta.
  destruct (N.eqb_spec (step (a_rule a (get g n)) st n) (st n)) as [|Hne]; [discriminate|].
  intros H. injection H as <-. auto.
Qed.

Lemma In_deps_of : forall g allow filt m n,
  In n (deps_of g allow filt m) <->
  In n allow /\ exists k, In (m, k) (trace (get g n)) /\ filt k = true.
Proof.
  intros g allow filt m n. unfold deps_of. split.
  - intros Hin. apply in_flat_map in Hin. destruct Hin as [x [Hx Hin]].
    apply in_flat_map in Hin. destruct Hin as [[m' k] [He Hin]]. cbn [fst snd] in Hin.
    destruct (N.eqb_spec m' m) as [->|_]; [|destruct Hin].
    destruct (filt k) eqn:E; [|destruct Hin].
    destruct Hin as [<-|[]]. eauto.
  - intros [Hn [k [He E]]]. apply in_flat_map. exists n. split; [exact Hn|].
    apply in_flat_map. exists (m, k). split; [exact He|].
    cbn [fst snd]. rewrite N.eqb_refl, E. left. reflexivity.
Qed.

Definition deg (g : ir) (allow : list N) : nat :=
  fold_right (fun x acc => (length (trace (get g x)) + acc)%nat) 0%nat allow.

Lemma length_flat_map_if : forall (A B : Type) (p : A -> bool) (x : B) (l : list A),
  (length (flat_map (fun e => if p e then [x] else []) l) <= length l)%nat.
Proof.
  intros A B p x l. induction l as [|e l IH]; [apply le_n|].
  cbn [flat_map]. rewrite app_length. destruct (p e); cbn [length]; lia.
Qed.

Lemma deps_length : forall g allow filt m, (length (deps_of g allow filt m) <= deg g allow)%nat.
Proof.
  intros g allow filt m. unfold deps_of.
  induction allow as [|x allow IH]; [apply le_n|]. cbn [flat_map deg fold_right]. rewrite app_length.
  pose proof (length_flat_map_if _ _ (fun e => (fst e =? m) && filt (snd e)) x (trace (get g x))).
  fold (deg g allow). lia.
Qed.

(* what [run] puts in front of the work list when the fact of [n] has changed *)
Definition pushed (g : ir) (a : analysis) (allow : list N) (n : N) : list N :=
  rev (if mem n allow then deps_of g allow (a_filter a) n else []).

Lemma In_pushed : forall g a allow n x, In x (pushed g a allow n) -> In x allow.
Proof.
  intros g a allow n x Hx. unfold pushed in Hx. apply in_rev in Hx.
  destruct (mem n allow); [apply In_deps_of in Hx; apply Hx|destruct Hx].
Qed.

Lemma pushed_covers : forall g a allow n x,
  In n allow -> In x (deps_of g allow (a_filter a) n) -> In x (pushed g a allow n).
Proof.
  intros g a allow n x Hn Hx. unfold pushed. apply mem_In in Hn. rewrite Hn. apply -> in_rev. exact Hx.
Qed.

Lemma length_pushed : forall g a allow n, (length (pushed g a allow n) <= deg g allow)%nat.
Proof.
  intros g a allow n. unfold pushed. rewrite rev_length.
  destruct (mem n allow); [apply deps_length|apply Nat.le_0_l].
Qed.

Lemma run_grun : forall g a allow fuel wl st,
  run fuel g a allow wl st = grun (next g a) (pushed g a allow) fuel wl st.
Proof.
  intros g a allow fuel.
  induction fuel as [|f IH]; intros [|n rest] st; cbn [run grun]; try reflexivity.
  unfold next. destruct (_ =? _); apply IH.
Qed.

Lemma run_supported : forall fuel g a allow wl st st',
  incl wl allow -> supported allow st -> run fuel g a allow wl st = Some st' -> supported allow st'.
Proof.
  intros fuel g a allow wl st st' Hwl Hs Hrun. rewrite run_grun in Hrun.
  refine (grun_all _ _ _ (fun x => In x allow) (fun m v => ~ In m allow -> v = 0)
            (In_pushed g a allow) _ _ _ _ _ Hwl Hs Hrun).
  intros n s v Hn _ _ Hout. contradiction.
Qed.

Lemma run_least : forall fuel g a allow wl st st' t,
  is_fixpoint g a allow t -> incl wl allow -> (forall m, st m <= t m) ->
  run fuel g a allow wl st = Some st' -> forall m, st' m <= t m.
Proof.
  intros fuel g a allow wl st st' t Hfix Hwl Hst Hrun. rewrite run_grun in Hrun.
  refine (grun_all _ _ _ (fun x => In x allow) (fun m v => v <= t m)
            (In_pushed g a allow) _ _ _ _ _ Hwl Hst Hrun).
  intros n s v Hn Hs E. apply next_Some in E. destruct E as [-> _].
  rewrite <- (Hfix n Hn). apply step_monotone, Hs.
Qed.

Lemma run_fixpoint : forall fuel g a allow wl st st',
  reads_subscribed g a allow -> incl wl allow ->
  (forall n, In n allow -> ~ In n wl -> step (a_rule a (get g n)) st n = st n) ->
  run fuel g a allow wl st = Some st' -> is_fixpoint g a allow st'.
Proof.
  intros fuel g a allow wl st st' Hsub Hwl Hcov Hrun. rewrite run_grun in Hrun.
  refine (grun_covers _ _ _ (fun x => In x allow) (fun x => In x allow)
            (fun s m => step (a_rule a (get g m)) s m = s m)
            (fun m => map fst (reads (a_rule a (get g m))))
            (In_pushed g a allow) _ (next_None g a) _ _ _ _ _ _ Hwl Hcov Hrun).
  - intros m n Hm Hn Hr. apply in_map_iff in Hr. destruct Hr as [[n' tr] [E Hr]]. cbn [fst] in E. subst n'.
    apply pushed_covers; [exact Hn|]. exact (Hsub m n tr Hm Hr Hn).
  - (* constraining a node that does not read itself a second time changes nothing *)
    intros s t n v E Htn Hr. apply next_Some in E. destruct E as [E _].
    rewrite step_unfold, Htn, (read_max_local t s) by exact Hr.
    rewrite E. apply N.max_l. exact (N.le_max_r (s n) _).
  - intros s t m Hm Hr Hsat. rewrite Hm, <- Hsat. apply step_local; assumption.
Qed.

Lemma analyze_fixed : forall fuel g a allow st,
  reads_subscribed g a allow -> analyze fuel g a allow = Some st ->
  is_fixpoint g a allow st /\ supported allow st.
Proof.
  intros fuel g a allow st Hsub Hrun. unfold analyze in Hrun.
  assert (Hwl : incl (rev allow) allow) by (intros x; apply in_rev).
  split.
  - apply (run_fixpoint _ _ _ _ _ _ _ Hsub Hwl) with (2 := Hrun). intros n Hn Hout.
    contradiction Hout. apply -> in_rev. exact Hn.
  - apply (run_supported _ _ _ _ _ _ _ Hwl) with (2 := Hrun). intros x _. reflexivity.
Qed.

Lemma analyze_below : forall fuel g a allow st t,
  analyze fuel g a allow = Some st -> is_fixpoint g a allow t -> forall m, st m <= t m.
Proof.
  intros fuel g a allow st t Hrun Hfix.
  apply (run_least _ _ _ _ _ _ _ _ Hfix) with (3 := Hrun); [intros x; apply in_rev|intros m; apply N.le_0_l].
Qed.

Definition pot (st : N -> N) (l : list N) : nat :=
  fold_right (fun x acc => ((2 - N.to_nat (st x)) + acc)%nat) 0%nat l.

Lemma run_terminates : forall g a allow, rule_bounded a ->
  forall fuel wl st,
  (forall x, In x wl -> In x allow) -> (forall m, st m <= 2) ->
  (length wl + deg g allow * pot st allow <= fuel)%nat ->
  exists st', run fuel g a allow wl st = Some st'.
Proof.
  intros g a allow Hb fuel wl st Hwl Hst Hf. rewrite run_grun.
  (* the height of a fact is the fact and the ceiling is 2:
     [pot s allow] is [potg 2 (fun x => N.to_nat (s x)) allow] *)
  apply (grun_total _ _ _ (fun v => v <= 2) N.to_nat 2%nat (deg g allow) allow);
    [| |exact Hwl|exact Hst|exact Hf].
  - intros n. split; [intros x; apply In_pushed|apply length_pushed].
  - intros n s v Hn H2 E. apply next_Some in E. destruct E as [-> Hne].
    pose proof (step_bound (a_rule a (get g n)) s n (Hb _) H2).
    pose proof (step_inflationary (a_rule a (get g n)) s n). lia.
Qed.

Lemma analyze_total : forall g a allow,
  rule_bounded a -> exists st, analyze (fuel_for g allow) g a allow = Some st.
Proof.
  intros g a allow Hb. apply (run_terminates g a allow Hb).
  - intros x. apply in_rev.
  - intros m. discriminate.
  - assert (Hp : (pot bottom allow <= length allow * 2)%nat)
      by apply (potg_le _ 2%nat (fun x => N.to_nat (bottom x))).
    apply (Nat.mul_le_mono_l _ _ (deg g allow)) in Hp.
    rewrite rev_length. unfold fuel_for. fold (deg g allow). lia.
Qed.

Lemma is_fixpoint_incl : forall g a allow allow' st,
  incl allow' allow -> is_fixpoint g a allow st -> is_fixpoint g a allow' st.
Proof. intros g a allow allow' st Hi Hf n Hn. apply Hf, Hi, Hn. Qed.

Lemma reads_subscribed_ext : forall g a allow allow',
  (forall x, In x allow <-> In x allow') -> reads_subscribed g a allow -> reads_subscribed g a allow'.
Proof.
  intros g a allow allow' Hsame Hs n m tr Hn Hr Hm.
  apply In_deps_of. split; [exact Hn|].
  apply Hsame in Hn. apply Hsame in Hm. apply (In_deps_of g allow), (Hs n m tr Hn Hr Hm).
Qed.

Lemma schedule_independent_gen : forall fuel fuel' g a allow allow' st st',
  (forall x, In x allow <-> In x allow') -> reads_subscribed g a allow ->
  analyze fuel g a allow = Some st -> analyze fuel' g a allow' = Some st' ->
  forall n, st n = st' n.
Proof.
  intros fuel fuel' g a allow allow' st st' Hsame Hsub Hrun Hrun' n.
  destruct (analyze_fixed _ _ _ _ _ Hsub Hrun) as [Hf _].
  destruct (analyze_fixed _ _ _ _ _ (reads_subscribed_ext _ _ _ _ Hsame Hsub) Hrun') as [Hf' _].
  apply N.le_antisymm.
  - apply (analyze_below _ _ _ _ _ _ Hrun), (is_fixpoint_incl _ _ allow'), Hf'. intros x. apply Hsame.
  - apply (analyze_below _ _ _ _ _ _ Hrun'), (is_fixpoint_incl _ _ allow), Hf. intros x. apply Hsame.
Qed.

Lemma schedule_independent : forall fuel fuel' g a allow allow' st st',
  NoDup allow -> Permutation allow allow' ->
  reads_subscribed g a allow ->
  analyze fuel g a allow = Some st -> analyze fuel' g a allow' = Some st' ->
  forall n, st n = st' n.
Proof.
  intros fuel fuel' g a allow allow' st st' _ Hp. apply schedule_independent_gen.
  intros x. split; apply Permutation_in; [exact Hp|apply Permutation_sym, Hp].
Qed.

Definition A_vtable := {| a_rule := rule_vtable; a_filter := filter_vtable |}.
Definition A_sizedness := {| a_rule := rule_sizedness; a_filter := filter_sizedness |}.
Definition A_destructor := {| a_rule := rule_destructor; a_filter := filter_destructor |}.
Definition A_float := {| a_rule := rule_float; a_filter := filter_float |}.
Definition A_tparam_array := {| a_rule := rule_tparam_array; a_filter := filter_tparam_array |}.

(* the constant a transfer can put in the place of a fact *)
Definition tr_cap (tr : transfer) : N := match tr with Copy => 0 | IfPresent c => c end.

Lemma bounded_nil : forall b, b <= 2 -> bounded {| base := b; reads := [] |}.
Proof. intros b Hb. split; [exact Hb|intros m c []]. Qed.

Lemma bounded_const : forall b tr l, b <= 2 -> tr_cap tr <= 2 ->
  bounded {| base := b; reads := map (fun x => (x, tr)) l |}.
Proof.
  intros b tr l Hb Htr. split; [exact Hb|]. cbn [reads].
  intros m c Hin. apply in_map_iff in Hin. destruct Hin as [x [E _]].
  injection E as _ ->. exact Htr.
Qed.

(* One case per [if]/[match] of the rule; in each the rule is a literal
   record whose reads are [], [present l] or [map (fun x => (x, tr)) l] (a singleton read
   [(t, tr)] being [map _ [t]]). *)
Ltac bounded_tac rule :=
  intros it; unfold rule;
  repeat match goal with |- context [match ?x with _ => _ end] => destruct x end;
  first [ apply bounded_nil | apply bounded_const | apply (bounded_const _ _ [_]) ]; discriminate.

Lemma rule_vtable_bounded : forall it, bounded (rule_vtable it).
Proof. bounded_tac rule_vtable. Qed.

Lemma rule_sizedness_bounded : forall it, bounded (rule_sizedness it).
Proof. bounded_tac rule_sizedness. Qed.

Lemma rule_destructor_bounded : forall it, bounded (rule_destructor it).
Proof. bounded_tac rule_destructor. Qed.

Lemma rule_float_bounded : forall it, bounded (rule_float it).
Proof. bounded_tac rule_float. Qed.

Lemma rule_tparam_array_bounded : forall it, bounded (rule_tparam_array it).
Proof. bounded_tac rule_tparam_array. Qed.

(* regular: every (m, tr) the rule reads has an edge (m, k) in [trace it] whose kind
   the analysis' consider_edge accepts.  This is the weakest item-local condition:
   it is literally the per-item content of [reads_subscribed]. *)
Definition regular_gen (rl : item -> rule) (filt : N -> bool) (it : item) : bool :=
  forallb (fun mt => existsb (fun e => (fst e =? fst mt) && filt (snd e)) (trace it))
          (reads (rl it)).

Definition regular_vtable := regular_gen rule_vtable filter_vtable.
Definition regular_sizedness := regular_gen rule_sizedness filter_sizedness.
Definition regular_destructor := regular_gen rule_destructor filter_destructor.
Definition regular_float := regular_gen rule_float filter_float.
Definition regular_tparam_array := regular_gen rule_tparam_array filter_tparam_array.

Lemma regular_gen_spec : forall rl filt it,
  regular_gen rl filt it = true <->
  forall m tr, In (m, tr) (reads (rl it)) ->
               exists k, In (m, k) (trace it) /\ filt k = true.
Proof.
  intros rl filt it. unfold regular_gen. rewrite forallb_forall. split.
  - intros H m tr Hin. specialize (H (m, tr) Hin). cbn [fst] in H.
    apply existsb_exists in H. destruct H as [[m' k] [He E]]. cbn [fst snd] in E.
    apply andb_true_iff in E. destruct E as [E1 E2]. apply N.eqb_eq in E1. subst m'.
    exists k. split; assumption.
  - intros H [m tr] Hin. destruct (H m tr Hin) as [k [Hk Hf]].
    apply existsb_exists. exists (m, k). split; [exact Hk|].
    cbn [fst snd]. rewrite N.eqb_refl, Hf. reflexivity.
Qed.

Lemma gen_subscribed : forall rl filt g allow,
  (forall n, In n allow -> regular_gen rl filt (get g n) = true) ->
  reads_subscribed g {| a_rule := rl; a_filter := filt |} allow.
Proof.
  intros rl filt g allow Hreg n m tr Hn Hr _. apply In_deps_of. split; [exact Hn|].
  exact (proj1 (regular_gen_spec rl filt (get g n)) (Hreg n Hn) m tr Hr).
Qed.

(* conversely an irregular item breaks reads_subscribed in the graph where its unsubscribed
   neighbour is allowlisted, so no weaker item-local predicate would do *)
Lemma gen_subscribed_conv : forall rl filt g allow,
  reads_subscribed g {| a_rule := rl; a_filter := filt |} allow ->
  forall n, In n allow ->
  (forall m tr, In (m, tr) (reads (rl (get g n))) -> In m allow) ->
  regular_gen rl filt (get g n) = true.
Proof.
  intros rl filt g allow Hsub n Hn Hclosed. apply regular_gen_spec. intros m tr Hr.
  apply (In_deps_of g allow filt m n), (Hsub n m tr Hn Hr (Hclosed m tr Hr)).
Qed.

(* an opaque item is still regular when its kind is traced unconditionally and it is
   not a composite (trace_comp drops base and field edges of opaque composites) *)
Definition opaque_ok (it : item) : bool :=
  negb (i_opaque it) ||
  match i_kind it with
  | IType (KComp _) => false
  | IType k => traced_unconditionally k
  | _ => true
  end.

Lemma opaque_ok_plain : forall it, i_opaque it = false -> opaque_ok it = true.
Proof. intros it Ho. unfold opaque_ok. rewrite Ho. reflexivity. Qed.

(* such an item traces as its kind does: opacity matters to [trace_type'] for composites only *)
Lemma trace_plain : forall it k,
  i_kind it = IType k -> i_stdint it = false -> opaque_ok it = true ->
  trace it = trace_type' k false false.
Proof.
  intros it k Hk Hs Ho. unfold trace, opaque_ok in *. rewrite Hk in *. rewrite Hs.
  destruct (i_opaque it); [|rewrite orb_true_r; reflexivity].
  destruct k; try discriminate Ho; reflexivity.
Qed.

(* also covers [present l], which is such a map *)
Lemma in_map_pair : forall (tr0 : transfer) m tr l,
  In (m, tr) (map (fun x : N => (x, tr0)) l) -> In m l.
Proof.
  intros tr0 m tr l Hin. apply in_map_iff in Hin.
  destruct Hin as [x [E Hx]]. injection E as -> _. exact Hx.
Qed.

Lemma all_tys_field : forall m fs,
  In m (field_all_tys fs) -> In (m, E_Field) (flat_map trace_field fs).
Proof.
  intros m fs Hin. unfold field_all_tys in Hin. apply in_flat_map in Hin.
  destruct Hin as [f [Hf Hm]]. apply in_flat_map. exists f. split; [exact Hf|].
  destruct f as [t|ts]; cbn [trace_field].
  - destruct Hm as [->|[]]. left. reflexivity.
  - apply (in_map (fun t => (t, E_Field))). exact Hm.
Qed.

Lemma data_tys_all : forall fs, incl (field_data_tys fs) (field_all_tys fs).
Proof.
  intros fs m Hin. apply in_flat_map in Hin. destruct Hin as [f [Hf Hm]].
  apply in_flat_map. exists f. split; [exact Hf|]. destruct f; [exact Hm|destruct Hm].
Qed.

Lemma in_trace_comp_base : forall c b,
  In b (c_bases c) -> In (b, E_BaseMember) (trace_comp c false).
Proof.
  intros c b Hb. unfold trace_comp. do 6 (apply in_or_app; right).
  apply in_or_app. left. apply (in_map (fun b => (b, E_BaseMember))). exact Hb.
Qed.

Lemma in_trace_comp_field : forall c m,
  In m (field_all_tys (c_fields c)) -> In (m, E_Field) (trace_comp c false).
Proof.
  intros c m Hm. unfold trace_comp. do 6 (apply in_or_app; right).
  apply in_or_app. right. apply all_tys_field, Hm.
Qed.

Lemma in_tail_map : forall (k : N) (hd : N * N) m l,
  In m l -> In (m, k) (hd :: map (fun x => (x, k)) l).
Proof. intros k hd m l Hm. right. apply (in_map (fun x => (x, k))). exact Hm. Qed.

(* decompose a hypothesis  In (m, tr) (reads ...)  into membership facts *)
Ltac inv_reads H :=
  repeat match type of H with
  | In _ [] => destruct H
  | In (_, _) (present _) => apply in_map_pair in H
  | In (_, _) (map _ _) => apply in_map_pair in H
  | In _ (_ ++ _) => apply in_app_or in H; destruct H as [H|H]
  | In _ (_ :: _) => destruct H as [H|H]
  | (_, _) = (_, _) => injection H as <- <-
  | _ = _ => destruct H
  end.

(* exhibit the accepted edge; the closing [reflexivity] is the look-up in the generated filter *)
Ltac find_edge :=
  first
  [ eexists; split; [left; reflexivity|reflexivity]
  | eexists; split; [apply in_tail_map; eassumption|reflexivity]
  | exists E_BaseMember; split; [apply in_trace_comp_base; assumption|reflexivity]
  | exists E_Field; split;
      [apply in_trace_comp_field; first [assumption|apply data_tys_all; assumption]|reflexivity] ].

(* The goal says that every read of a rule, given by cases on the kind [k], is the target of an
   accepted edge of [trace_type' k false false].  One case per kind and per [if]/[match] left in
   the rule; in each the reads are listed ([inv_reads]; most kinds read nothing) and every read
   is matched with an edge. *)
Ltac reads_traced k :=
  destruct k; intros m tr Hr; cbn [reads no_rule] in Hr;
  repeat (match type of Hr with context [match ?x with _ => _ end] => destruct x end;
          cbn [reads no_rule] in Hr);
  inv_reads Hr; cbn -[trace_comp]; find_edge.

(* for a rule that is a function of the kind alone; items that are not types read nothing *)
Ltac sufficient rule :=
  intros it Hs Ho; apply regular_gen_spec; unfold rule;
  destruct (i_kind it) as [|k| |] eqn:Hk; try (intros m tr []);
  rewrite (trace_plain it k Hk Hs Ho); reads_traced k.

Lemma regular_vtable_sufficient' : forall it,
  i_stdint it = false -> opaque_ok it = true -> regular_vtable it = true.
Proof. sufficient rule_vtable. Qed.

Lemma regular_destructor_sufficient' : forall it,
  i_stdint it = false -> opaque_ok it = true -> regular_destructor it = true.
Proof. sufficient rule_destructor. Qed.

Lemma regular_float_sufficient' : forall it,
  i_stdint it = false -> opaque_ok it = true -> regular_float it = true.
Proof. sufficient rule_float. Qed.

Lemma regular_tparam_array_sufficient' : forall it,
  i_stdint it = false -> opaque_ok it = true -> regular_tparam_array it = true.
Proof. sufficient rule_tparam_array. Qed.

Lemma regular_vtable_sufficient : forall it,
  i_stdint it = false -> i_opaque it = false -> regular_vtable it = true.
Proof. intros it Hs Ho. apply regular_vtable_sufficient', opaque_ok_plain; assumption. Qed.

Lemma regular_destructor_sufficient : forall it,
  i_stdint it = false -> i_opaque it = false -> regular_destructor it = true.
Proof. intros it Hs Ho. apply regular_destructor_sufficient', opaque_ok_plain; assumption. Qed.

Lemma regular_float_sufficient : forall it,
  i_stdint it = false -> i_opaque it = false -> regular_float it = true.
Proof. intros it Hs Ho. apply regular_float_sufficient', opaque_ok_plain; assumption. Qed.

Lemma regular_tparam_array_sufficient : forall it,
  i_stdint it = false -> i_opaque it = false -> regular_tparam_array it = true.
Proof. intros it Hs Ho. apply regular_tparam_array_sufficient', opaque_ok_plain; assumption. Qed.

(* sizedness handles items with a vtable pointer and opaque items before looking at the kind,
   and reads nothing for them, so only the stdint early return can starve it *)
Lemma regular_sizedness_sufficient' : forall it,
  i_stdint it = false -> regular_sizedness it = true.
Proof.
  intros it Hs. apply regular_gen_spec. unfold rule_sizedness.
  destruct (i_kind it) as [|k| |] eqn:Hk; try (intros m tr []).
  destruct (i_vtable_ptr it); [intros m tr []|].
  destruct (i_opaque it) eqn:Ho; [intros m tr []|].
  rewrite (trace_plain it k Hk Hs (opaque_ok_plain it Ho)). reads_traced k.
Qed.

Definition mk (k : ikind) : item :=
  {| i_kind := k; i_opaque := false; i_stdint := false; i_vtable_ptr := false;
     i_layout_size := None |}.

Definition mkcomp (bases : list N) (fields : list field) (virt dtor : bool) : comp :=
  {| c_union := false; c_own_virtual := virt; c_own_dtor := dtor; c_bases := bases;
     c_fields := fields; c_all_tparams := []; c_inner_types := []; c_inner_vars := [];
     c_methods := []; c_dtor := None; c_ctors := [] |}.

Definition of_list (l : list (N * item)) : ir :=
  fun n => option_map snd (find (fun p => fst p =? n) l).

(* typedef float int32_t-like: the name is a <stdint.h> name, Type::trace returns early *)
Definition stdint_alias (t : N) : item :=
  {| i_kind := IType (KAlias t); i_opaque := false; i_stdint := true; i_vtable_ptr := false;
     i_layout_size := None |}.

(* opaque struct { float f; } : trace_comp omits the field edge, has_float still reads it *)
Definition opaque_struct (bases : list N) (fields : list field) : item :=
  {| i_kind := IType (KComp (mkcomp bases fields false false)); i_opaque := true;
     i_stdint := false; i_vtable_ptr := false; i_layout_size := Some 4 |}.

(* opaque typedef: not traced_unconditionally, the whole trace is skipped *)
Definition opaque_alias (t : N) : item :=
  {| i_kind := IType (KAlias t); i_opaque := true; i_stdint := false; i_vtable_ptr := false;
     i_layout_size := Some 4 |}.

Example irregular_float_stdint_alias : regular_float (stdint_alias 2) = false.
Proof. vm_compute. reflexivity. Qed.

Example irregular_float_opaque_struct : regular_float (opaque_struct [] [FData 2]) = false.
Proof. vm_compute. reflexivity. Qed.

Example irregular_float_opaque_bitfield : regular_float (opaque_struct [] [FUnit [2]]) = false.
Proof. vm_compute. reflexivity. Qed.

Example irregular_float_opaque_alias : regular_float (opaque_alias 2) = false.
Proof. vm_compute. reflexivity. Qed.

Example irregular_vtable_stdint_alias : regular_vtable (stdint_alias 2) = false.
Proof. vm_compute. reflexivity. Qed.

Example irregular_vtable_opaque_base : regular_vtable (opaque_struct [2] []) = false.
Proof. vm_compute. reflexivity. Qed.

Example irregular_sizedness_stdint_alias : regular_sizedness (stdint_alias 2) = false.
Proof. vm_compute. reflexivity. Qed.

Example regular_sizedness_opaque_struct : regular_sizedness (opaque_struct [2] [FData 3]) = true.
Proof. vm_compute. reflexivity. Qed.

Example irregular_destructor_stdint_alias : regular_destructor (stdint_alias 2) = false.
Proof. vm_compute. reflexivity. Qed.

Example irregular_destructor_opaque_struct : regular_destructor (opaque_struct [2] [FData 3]) = false.
Proof. vm_compute. reflexivity. Qed.

Example irregular_tparam_array_stdint_alias : regular_tparam_array (stdint_alias 2) = false.
Proof. vm_compute. reflexivity. Qed.

Example irregular_tparam_array_opaque_struct :
  regular_tparam_array (opaque_struct [] [FData 2]) = false.
Proof. vm_compute. reflexivity. Qed.

(* 1 : typedef float <stdint-like name>;   2 : float *)
Definition refute_g : ir := of_list [ (1, stdint_alias 2); (2, mk (IType KFloat)) ].

Example refute_unsubscribed : unsubscribed_reads refute_g A_float [1; 2] = [(1, 2)].
Proof. vm_compute. reflexivity. Qed.

(* initial work list = rev allow.  allow = [1;2]: 2 is popped first, then 1 sees it *)
Example refute_order_12 :
  option_map (fun st => map st [1; 2]) (analyze (fuel_for refute_g [1; 2]) refute_g A_float [1; 2])
  = Some [1; 1].
Proof. vm_compute. reflexivity. Qed.

(* allow = [2;1]: 1 is popped first (sees bottom), 2 changes but nobody is requeued *)
Example refute_order_21 :
  option_map (fun st => map st [1; 2]) (analyze (fuel_for refute_g [2; 1]) refute_g A_float [2; 1])
  = Some [0; 1].
Proof. vm_compute. reflexivity. Qed.

Example refute_not_fixpoint :
  option_map (fun st => (is_fixpoint_b refute_g A_float [2; 1] st, unstable_nodes refute_g A_float [2; 1] st))
             (analyze (fuel_for refute_g [2; 1]) refute_g A_float [2; 1])
  = Some (false, [1]).
Proof. vm_compute. reflexivity. Qed.

(* 1 : struct S : B { F3 f; T[4] a; }     2 : struct B { virtual ~B(); }  (has a vtable ptr)
   3 : typedef F4 F3;   4 : typedef float F4;   5 : float
   6 : S<float>  (instantiation of 1)      7 : T (type parameter)   8 : T[4] *)
Definition ex_g : ir := of_list
  [ (1, mk (IType (KComp (mkcomp [2] [FData 3; FData 8] false false))));
    (2, {| i_kind := IType (KComp (mkcomp [] [] true true)); i_opaque := false;
           i_stdint := false; i_vtable_ptr := true; i_layout_size := None |});
    (3, mk (IType (KAlias 4)));
    (4, mk (IType (KAlias 5)));
    (5, mk (IType KFloat));
    (6, mk (IType (KInst 1 [5])));
    (7, mk (IType KTypeParam));
    (8, mk (IType (KArray 7 4 true))) ].
Definition ex_allow : list N := [1; 2; 3; 4; 5; 6; 7; 8].
Definition ex_show (o : option (N -> N)) : option (list N) :=
  option_map (fun st => map st ex_allow) o.

Example ex_nodup_nonvacuous : NoDup ex_allow.
Proof. exact (NoDup_nodup N.eq_dec ex_allow). Qed.

Example ex_vtable_subscribed_nonvacuous : reads_subscribed ex_g A_vtable ex_allow.
Proof. apply gen_subscribed, forallb_forall. vm_compute. reflexivity. Qed.
Example ex_sizedness_subscribed_nonvacuous : reads_subscribed ex_g A_sizedness ex_allow.
Proof. apply gen_subscribed, forallb_forall. vm_compute. reflexivity. Qed.
Example ex_destructor_subscribed_nonvacuous : reads_subscribed ex_g A_destructor ex_allow.
Proof. apply gen_subscribed, forallb_forall. vm_compute. reflexivity. Qed.
Example ex_float_subscribed_nonvacuous : reads_subscribed ex_g A_float ex_allow.
Proof. apply gen_subscribed, forallb_forall. vm_compute. reflexivity. Qed.
Example ex_tparam_array_subscribed_nonvacuous : reads_subscribed ex_g A_tparam_array ex_allow.
Proof. apply gen_subscribed, forallb_forall. vm_compute. reflexivity. Qed.

Example ex_vtable_nonvacuous :
  ex_show (analyze (fuel_for ex_g ex_allow) ex_g A_vtable ex_allow) = Some [2; 1; 0; 0; 0; 2; 0; 0].
Proof. vm_compute. reflexivity. Qed.
Example ex_sizedness_nonvacuous :
  ex_show (analyze (fuel_for ex_g ex_allow) ex_g A_sizedness ex_allow) = Some [2; 2; 2; 2; 2; 2; 1; 2].
Proof. vm_compute. reflexivity. Qed.
Example ex_destructor_nonvacuous :
  ex_show (analyze (fuel_for ex_g ex_allow) ex_g A_destructor ex_allow) = Some [1; 1; 0; 0; 0; 1; 0; 0].
Proof. vm_compute. reflexivity. Qed.
Example ex_float_nonvacuous :
  ex_show (analyze (fuel_for ex_g ex_allow) ex_g A_float ex_allow) = Some [1; 0; 1; 1; 1; 1; 0; 0].
Proof. vm_compute. reflexivity. Qed.
Example ex_tparam_array_nonvacuous :
  ex_show (analyze (fuel_for ex_g ex_allow) ex_g A_tparam_array ex_allow) = Some [1; 0; 0; 0; 0; 1; 0; 1].
Proof. vm_compute. reflexivity. Qed.

(* the reversed schedule gives the same facts, and the answer passes the boolean
   fixed-point check used on real dumps *)
Example ex_float_reversed_nonvacuous :
  ex_show (analyze (fuel_for ex_g (rev ex_allow)) ex_g A_float (rev ex_allow))
  = Some [1; 0; 1; 1; 1; 1; 0; 0].
Proof. vm_compute. reflexivity. Qed.
Example ex_float_fixpoint_b_nonvacuous :
  option_map (is_fixpoint_b ex_g A_float ex_allow) (analyze (fuel_for ex_g ex_allow) ex_g A_float ex_allow)
  = Some true.
Proof. vm_compute. reflexivity. Qed.

(* 8 items with 8 trace edges between them: 8 + 2 * 8 * (8 + 1) + 1 *)
Example ex_fuel_nonvacuous : fuel_for ex_g ex_allow = 153%nat.
Proof. vm_compute. reflexivity. Qed.
