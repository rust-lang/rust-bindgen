(* C07/TParamsProofs — the rule F of UsedTemplateParameters is taken apart by cases once
   ([F_cases]); the solver is the loop of C07.Worklist ([run_grun]) and its theorems are that
   loop's rules, the height of a duplicate-free set being its length.  Standard library only,
   no axioms. *)
From Coq Require Import NArith PeanoNat List Bool Lia.
From BG Require Import C07.Proofs C07.Model C07.Exec C07.TParams C07.Worklist.
From BGgen Require Import C07_Table.
Import ListNotations.
Open Scope N_scope.

Lemma flat_map_incl : forall (A : Type) (f g : A -> list N) (l : list A),
  (forall x, In x l -> incl (f x) (g x)) -> incl (flat_map f l) (flat_map g l).
Proof.
  intros A f g l H y Hy. apply in_flat_map in Hy. destruct Hy as [x [Hx Hy]].
  apply in_flat_map. exists x. split; auto. apply (H x Hx). exact Hy.
Qed.

Lemma flat_map_ext_in : forall (A B : Type) (f g : A -> list B) (l : list A),
  (forall x, In x l -> f x = g x) -> flat_map f l = flat_map g l.
Proof.
  intros A B f g l. induction l as [|x l IH]; intros H; cbn [flat_map]; auto.
  rewrite (H x (or_introl eq_refl)). rewrite IH; auto. intros y Hy. apply H. right. exact Hy.
Qed.

Lemma flat_map_nil_iff : forall (A B : Type) (f : A -> list B) (l : list A),
  flat_map f l = [] <-> forall x, In x l -> f x = [].
Proof.
  intros A B f l. induction l as [|y l IH]; cbn [flat_map]; split.
  - intros _ x [].
  - reflexivity.
  - intros H x Hx. apply app_eq_nil in H. destruct Hx as [<-|Hx]; [apply H|apply IH; [apply H|exact Hx]].
  - intros H. rewrite (H y (or_introl eq_refl)). apply IH. intros x Hx. apply H. right. exact Hx.
Qed.

Lemma filter_nil_iff : forall (A : Type) (f : A -> bool) (l : list A),
  filter f l = [] <-> (forall x, In x l -> f x = false).
Proof.
  intros A f l. induction l as [|y l IH]; cbn [filter].
  - split; auto. intros _ x [].
  - destruct (f y) eqn:E; split.
    + discriminate.
    + intros H. rewrite (H y (or_introl eq_refl)) in E. discriminate.
    + intros H x [<-|Hx]; auto. apply IH; auto.
    + intros H. apply IH. intros x Hx. apply H. right. exact Hx.
Qed.

Lemma fresh_In : forall a b x, In x (fresh a b) <-> In x b /\ ~ In x a.
Proof.
  intros a b x. unfold fresh. rewrite nodup_In, filter_In.
  split; intros [H1 H2]; split; auto.
  - intro H. apply mem_In in H. rewrite H in H2. discriminate.
  - destruct (mem x a) eqn:E; auto. apply mem_In in E. contradiction.
Qed.

Lemma fresh_nil_iff : forall a b, fresh a b = [] <-> incl b a.
Proof.
  intros a b. split.
  - intros H x Hx. destruct (in_dec N.eq_dec x a) as [Hi|Hn]; auto.
    assert (Hf : In x (fresh a b)) by (apply fresh_In; split; auto).
    rewrite H in Hf. destruct Hf.
  - intros H. destruct (fresh a b) as [|y l] eqn:E; auto.
    assert (Hf : In y (fresh a b)) by (rewrite E; left; auto).
    apply fresh_In in Hf. destruct Hf as [Hb Ha]. exfalso. apply Ha. apply H. exact Hb.
Qed.

Lemma nunion_spec : forall a b x, In x (nunion a b) <-> In x a \/ In x b.
Proof.
  intros a b x. unfold nunion. rewrite in_app_iff, fresh_In. split.
  - intros [H|[H _]]; auto.
  - intros [H|H]; auto. destruct (in_dec N.eq_dec x a); auto.
Qed.

Lemma changed_iff_length : forall a b, length (nunion a b) = length a <-> incl b a.
Proof.
  intros a b. unfold nunion. rewrite app_length, <- fresh_nil_iff. split.
  - intros H. apply length_zero_iff_nil. lia.
  - intros H. rewrite H. cbn [length]. lia.
Qed.

Lemma nunion_longer : forall a b, ~ incl b a -> (length a < length (nunion a b))%nat.
Proof.
  intros a b H. unfold nunion. rewrite app_length.
  destruct (fresh a b) eqn:E; [apply fresh_nil_iff in E; contradiction|cbn [length]; lia].
Qed.

Lemma NoDup_nunion : forall a b, NoDup a -> NoDup (nunion a b).
Proof.
  intros a b Ha. apply NoDup_app_disj; auto.
  - unfold fresh. apply NoDup_nodup.
  - intros x Hx Hf. apply fresh_In in Hf. destruct Hf as [_ Hn]. contradiction.
Qed.

Lemma subset_b_incl : forall a b, subset_b a b = true <-> incl a b.
Proof.
  intros a b. unfold subset_b. rewrite forallb_forall.
  split; intros H x Hx; apply mem_In, H, Hx.
Qed.

Lemma In_constrain : forall c st n x, In x (constrain c st n) <-> In x (st n) \/ In x (F c st n).
Proof. intros c st n x. apply nunion_spec. Qed.

Lemma reads_join_not_self : forall c n, ~ In n (reads_join c n).
Proof.
  intros c n H. unfold reads_join in H. apply in_flat_map in H. destruct H as [e [_ H]].
  destruct (N.eqb_spec (fst e) n) as [|E]; cbn [negb andb] in H; [destruct H|].
  destruct (c_consider c (snd e)); [|destruct H].
  destruct H as [H|[]]. contradiction.
Qed.

Lemma arg_reads_not_self : forall c n args, ~ In n (arg_reads c n args).
Proof.
  intros c n args H. unfold arg_reads in H. apply in_flat_map in H. destruct H as [a [_ H]].
  cbv zeta in H. destruct (N.eqb_spec (res c a) n) as [|E]; [destruct H|].
  destruct H as [H|[]]. contradiction.
Qed.

Lemma F_blk_eq : forall c st n args, F_blk c st n args = flat_map st (arg_reads c n args).
Proof.
  intros c st n args. unfold F_blk, arg_reads. induction args as [|a args IH]; [reflexivity|].
  cbn [flat_map]. rewrite flat_map_app, IH. cbv zeta.
  destruct (res c a =? n); cbn [flat_map]; [reflexivity|]. rewrite (app_nil_r (st (res c a))). reflexivity.
Qed.

(* what [reads] gives for an instantiation of the allowlisted definition [def] *)
Definition inst_reads (c : ctx) (n def : N) (args : list N) : list N :=
  if def =? n then [] else def :: arg_reads c n (map fst (combine args (params_of c def))).

(* The case analysis of F and of [reads], done once.  [R rs a b] relates what the node reads
   to its contributions under two assignments: a type parameter contributes itself; an
   instantiation of an allowlisted definition goes through F_inst; every other node joins the
   sets of a list of nodes other than itself. *)
Lemma F_cases : forall c s t n (R : list N -> list N -> list N -> Prop),
  (kind_of (cg c) n = Some KTypeParam -> R [] [n] [n]) ->
  (forall def args, R (inst_reads c n def args) (F_inst c s n def args) (F_inst c t n def args)) ->
  (forall L, ~ In n L -> R L (flat_map s L) (flat_map t L)) ->
  R (reads c n) (F c s n) (F c t n).
Proof.
  intros c s t n R Hp Hi Hl. unfold F, reads.
  destruct (kind_of (cg c) n) as [k|]; [destruct k|]; try (apply Hl, reads_join_not_self).
  - apply Hp. reflexivity.
  - destruct (mem def (c_allow c)); [apply Hi|]. rewrite !F_blk_eq. apply Hl, arg_reads_not_self.
Qed.

Lemma F_inst_mono : forall c s t n def args, below s t ->
  incl (F_inst c s n def args) (F_inst c t n def args).
Proof.
  intros c s t n def args H. unfold F_inst. destruct (def =? n); [apply incl_refl|].
  apply flat_map_incl. intros ap _.
  destruct (mem (snd ap) (s def)) eqn:E; [|apply incl_nil_l].
  assert (E' : mem (snd ap) (t def) = true).
  { apply mem_In. apply (H def). apply mem_In. exact E. }
  rewrite E'. cbv zeta. destruct (res c (fst ap) =? n); [apply incl_refl | apply H].
Qed.

Lemma F_monotone : forall c s t n, below s t -> incl (F c s n) (F c t n).
Proof.
  intros c s t n H. apply (F_cases c s t n (fun _ a b => incl a b)).
  - intros _. apply incl_refl.
  - intros def args. apply F_inst_mono, H.
  - intros L _. apply flat_map_incl. intros x _. apply H.
Qed.

Lemma F_inst_local : forall c s t n def args,
  (forall r, In r (inst_reads c n def args) -> s r = t r) ->
  F_inst c s n def args = F_inst c t n def args.
Proof.
  intros c s t n def args H. unfold F_inst, inst_reads in *. destruct (def =? n); auto.
  apply flat_map_ext_in. intros ap Hap.
  rewrite (H def (or_introl eq_refl)).
  destruct (mem (snd ap) (t def)); auto. cbv zeta.
  destruct (res c (fst ap) =? n) eqn:E; auto. apply H. right.
  unfold arg_reads. apply in_flat_map. exists (fst ap). split.
  - apply in_map. exact Hap.
  - cbv zeta. rewrite E. left. reflexivity.
Qed.

Lemma F_local : forall c s t n,
  (forall r, In r (reads c n) -> s r = t r) -> F c s n = F c t n.
Proof.
  intros c s t n. apply (F_cases c s t n (fun rs a b => (forall r, In r rs -> s r = t r) -> a = b)).
  - reflexivity.
  - intros def args. apply F_inst_local.
  - intros L _. apply flat_map_ext_in.
Qed.

Lemma reads_not_self : forall c n, ~ In n (reads c n).
Proof.
  intros c n. apply (F_cases c empty empty n (fun rs _ _ => ~ In n rs)).
  - intros _ [].
  - intros def args. unfold inst_reads. destruct (N.eqb_spec def n) as [|Hne]; [intros []|].
    intros [H|H]; [exact (Hne H)|exact (arg_reads_not_self _ _ _ H)].
  - intros L H. exact H.
Qed.

Lemma F_inst_closed : forall c (s : sets) n def args (U : list N),
  (forall m, incl (s m) U) -> incl (F_inst c s n def args) U.
Proof.
  intros c s n def args U H x Hx. unfold F_inst in Hx.
  destruct (def =? n); [destruct Hx|]. apply in_flat_map in Hx.
  destruct Hx as [ap [_ Hx]]. cbv zeta in Hx.
  destruct (mem (snd ap) (s def)); [|destruct Hx].
  destruct (res c (fst ap) =? n); [destruct Hx|]. apply (H (res c (fst ap))). exact Hx.
Qed.

Lemma F_closed_typeparams : forall c (Dl U : list N),
  (forall n, In n Dl -> kind_of (cg c) n = Some KTypeParam -> In n U) ->
  forall s n, In n Dl -> (forall m, incl (s m) U) -> incl (F c s n) U.
Proof.
  intros c Dl U HT s n Hn Hs. apply (F_cases c s s n (fun _ a _ => incl a U)).
  - intros K x [<-|[]]. apply HT; assumption.
  - intros def args. apply F_inst_closed, Hs.
  - intros L _ x Hx. apply in_flat_map in Hx. destruct Hx as [r [_ Hx]]. apply (Hs r), Hx.
Qed.

(* what [run] asks of a popped node: its new set, [None] when nothing is added *)
Definition next (c : ctx) (st : sets) (n : N) : option (list N) :=
  match fresh (st n) (F c st n) with [] => None | add => Some (st n ++ add) end.

Lemma run_grun : forall c deps fuel wl st,
  run fuel c deps wl st = grun (next c) (fun n => rev (deps n)) fuel wl st.
Proof.
  intros c deps fuel.
  induction fuel as [|f IH]; intros [|n rest] st; cbn [run grun]; try reflexivity.
  unfold next. destruct (fresh (st n) (F c st n)); apply IH.
Qed.

Lemma next_None : forall c st n, next c st n = None -> stable c st n.
Proof.
  intros c st n. unfold next, stable. rewrite <- fresh_nil_iff.
  destruct (fresh (st n) (F c st n)); [reflexivity|discriminate].
Qed.

Lemma next_Some : forall c st n v,
  next c st n = Some v -> v = constrain c st n /\ ~ stable c st n.
Proof.
  intros c st n v. unfold next, stable, constrain, nunion. rewrite <- fresh_nil_iff.
  destruct (fresh (st n) (F c st n)); [discriminate|]. intros H. injection H as <-.
  split; [reflexivity|discriminate].
Qed.

Lemma run_least : forall fuel c deps wl st r (D : N -> Prop) t,
  run fuel c deps wl st = Some r ->
  within D wl -> (forall n, within D (deps n)) ->
  below st t -> stable_on c D t ->
  below r t.
Proof.
  intros fuel c deps wl st r D t Hrun Hwl Hdeps Hb Hst. rewrite run_grun in Hrun.
  refine (grun_all _ _ _ D (fun m v => incl v (t m)) _ _ _ _ _ _ Hwl Hb Hrun).
  - intros n x Hx. apply (Hdeps n), in_rev, Hx.
  - intros n s v Hn Hs E. apply next_Some in E. destruct E as [-> _].
    intros x Hx. apply In_constrain in Hx. destruct Hx as [Hx|Hx]; [apply (Hs n), Hx|].
    apply (Hst n Hn), (F_monotone c s t n Hs), Hx.
Qed.

Lemma run_stable : forall fuel c deps wl st r (D : N -> Prop),
  run fuel c deps wl st = Some r ->
  subscribed c D deps ->
  (forall m, D m -> ~ In m wl -> stable c st m) ->
  stable_on c D r.
Proof.
  intros fuel c deps wl st r D Hrun Hsub Hinv. rewrite run_grun in Hrun.
  refine (grun_covers _ _ _ (fun _ => True) D (stable c) (reads c) (fun _ _ _ => I) _ (next_None c) _ _
            _ _ _ _ (fun _ _ => I) Hinv Hrun).
  - intros m n Hm _ Hr. apply -> in_rev. exact (Hsub m n Hm Hr).
  - intros s t n v E Htn Hr. apply next_Some in E. destruct E as [-> _].
    unfold stable. rewrite Htn, (F_local c t s n Hr).
    intros x Hx. apply In_constrain. right. exact Hx.
  - intros s t m Hm Hr Hsat. unfold stable. rewrite Hm, (F_local c t s m Hr). exact Hsat.
Qed.

Lemma run_inflationary : forall fuel c deps wl st r,
  run fuel c deps wl st = Some r -> below st r.
Proof.
  intros fuel c deps wl st r Hrun. rewrite run_grun in Hrun.
  refine (grun_all _ _ _ (fun _ => True) (fun m v => incl (st m) v) (fun _ _ _ => I) _ _ _ _ _
            (fun _ _ => I) (fun m => incl_refl (st m)) Hrun).
  intros n s v _ Hs E. apply next_Some in E. destruct E as [-> _].
  intros x Hx. apply In_constrain. left. apply (Hs n), Hx.
Qed.

Lemma run_nodup : forall fuel c deps wl st r,
  run fuel c deps wl st = Some r -> (forall n, NoDup (st n)) -> forall n, NoDup (r n).
Proof.
  intros fuel c deps wl st r Hrun Hnd. rewrite run_grun in Hrun.
  refine (grun_all _ _ _ (fun _ => True) (fun _ v => NoDup v) (fun _ _ _ => I) _ _ _ _ _
            (fun _ _ => I) Hnd Hrun).
  intros n s v _ Hs E. apply next_Some in E. destruct E as [-> _]. apply NoDup_nunion, Hs.
Qed.

Lemma schedule_independent : forall f1 f2 c d1 d2 w1 w2 r1 r2 (D : N -> Prop),
  run f1 c d1 w1 empty = Some r1 -> run f2 c d2 w2 empty = Some r2 ->
  within D w1 -> within D w2 -> (forall n, within D (d1 n)) -> (forall n, within D (d2 n)) ->
  stable_on c D r1 -> stable_on c D r2 ->
  same r1 r2.
Proof.
  intros f1 f2 c d1 d2 w1 w2 r1 r2 D H1 H2 Hw1 Hw2 Hd1 Hd2 Hs1 Hs2.
  assert (Hb : forall t, below empty t) by (intros t n x []).
  intros n. split.
  - apply (run_least f1 c d1 w1 empty r1 D r2 H1 Hw1 Hd1 (Hb r2) Hs2).
  - apply (run_least f2 c d2 w2 empty r2 D r1 H2 Hw2 Hd2 (Hb r1) Hs1).
Qed.

(* Every change adds an element to a duplicate-free subset of U at a node of Dl: the height of a
   set is its length, the ceiling |U|; at most k nodes are pushed. *)
Lemma run_terminates : forall c deps (Dl U : list N) (k : nat) wl st fuel,
  (forall x, In x wl -> In x Dl) -> (forall n x, In x (deps n) -> In x Dl) ->
  (forall n, (length (deps n) <= k)%nat) ->
  (forall n, NoDup (st n) /\ incl (st n) U) ->
  (forall s n, In n Dl -> (forall m, incl (s m) U) -> incl (F c s n) U) ->
  (length wl + length Dl * length U * (k + 1) <= fuel)%nat ->
  exists r, run fuel c deps wl st = Some r.
Proof.
  intros c deps Dl U k wl st fuel Hwl Hdeps Hk Hinv HF Hb. rewrite run_grun.
  apply (grun_total _ _ _ (fun v => NoDup v /\ incl v U) (@length N) (length U) (k + 1) Dl);
    [| |exact Hwl|exact Hinv|].
  - intros n. split; [intros x Hx; apply (Hdeps n), in_rev, Hx|].
    rewrite rev_length. specialize (Hk n). lia.
  - intros n s v Hn H2 E. apply next_Some in E. destruct E as [-> Hns].
    assert (Hnd : NoDup (constrain c s n)) by apply NoDup_nunion, H2.
    assert (Hi : incl (constrain c s n) U).
    { intros x Hx. apply In_constrain in Hx. destruct Hx as [Hx|Hx]; [apply (H2 n), Hx|].
      apply (HF s n Hn (fun m => proj2 (H2 m))), Hx. }
    split; [split; assumption|]. split; [apply nunion_longer, Hns|apply NoDup_incl_length; assumption].
  - pose proof (potg_le _ (length U) (fun x => length (st x)) Dl) as Hm.
    apply (Nat.mul_le_mono_l _ _ (k + 1)) in Hm. lia.
Qed.

Lemma unstable_nodes_spec : forall c st nodes,
  unstable_nodes c st nodes = [] <-> (forall n, In n nodes -> stable c st n).
Proof.
  intros c st nodes. unfold unstable_nodes, stable. rewrite filter_nil_iff. split.
  - intros H n Hn. apply subset_b_incl. specialize (H n Hn).
    apply negb_false_iff in H. exact H.
  - intros H n Hn. apply negb_false_iff. apply subset_b_incl. apply H. exact Hn.
Qed.

Lemma unsubscribed_reads_iff : forall c deps nodes,
  unsubscribed_reads c deps nodes = [] <-> subscribed c (fun m => In m nodes) deps.
Proof.
  intros c deps nodes. unfold unsubscribed_reads, subscribed. rewrite flat_map_nil_iff. split.
  - intros H m n Hm Hr. specialize (H m Hm). rewrite flat_map_nil_iff in H. specialize (H n Hr).
    cbv beta in H. apply mem_In. destruct (mem m (deps n)); [reflexivity|discriminate].
  - intros H m Hm. apply flat_map_nil_iff. intros n Hr.
    rewrite (proj2 (mem_In _ _) (H m n Hm Hr)). reflexivity.
Qed.

Definition ex_it (k : tkind) : item :=
  {| i_kind := IType k; i_opaque := false; i_stdint := false; i_vtable_ptr := false; i_layout_size := None |}.

Definition ex_comp (fields : list field) (tps : list N) : comp :=
  {| c_union := false; c_own_virtual := false; c_own_dtor := false; c_bases := [];
     c_fields := fields; c_all_tparams := tps; c_inner_types := []; c_inner_vars := [];
     c_methods := []; c_dtor := None; c_ctors := [] |}.

Definition ex_items : list (N * item) :=
 [(1, ex_it KTypeParam); (2, ex_it KTypeParam);
  (3, ex_it (KComp (ex_comp [FData 1] [1;2])));
  (4, ex_it KInt); (5, ex_it KFloat); (6, ex_it (KInst 3 [4;5]));
  (8, ex_it KTypeParam); (9, ex_it (KInst 3 [8;4]));
  (7, ex_it (KComp (ex_comp [FData 9] [8])))].

Definition ex_selfp (n : N) : list N := if n =? 3 then [1;2] else if n =? 7 then [8] else [].

Definition ex_ctx : ctx :=
  {| cg := mk_ir ex_items; c_consider := filter_used_tparams; c_selfp := ex_selfp;
     c_allow := [3;6;7;9]; c_fuel := 20 |}.

(* the same program plus  using A = T';  S<A, int> y;  (10 = A, 11 = S<A, int>) *)
Definition gap_ctx : ctx :=
  {| cg := mk_ir (ex_items ++ [(10, ex_it (KAlias 8)); (11, ex_it (KInst 3 [10;4]))]);
     c_consider := filter_used_tparams; c_selfp := ex_selfp;
     c_allow := [3;6;7;9;11]; c_fuel := 20 |}.

Lemma subscription_gap : exists c, unsubscribed_reads c (impl_deps c) (domain c) <> [].
Proof.
  exists gap_ctx. vm_compute. discriminate.
Qed.
