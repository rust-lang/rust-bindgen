(* C07/Worklist — the work-list loop of ir/analysis/mod.rs (analyze) over states that keep one
   value per node: pop a node, ask [next] for its new value; when nothing changed the node is
   dropped, otherwise the nodes of [push n] are put in front of the list.  C07.Model.run and
   C07.TParams.run are this loop at their own [next] and [push] ([run_grun] in Proofs.v and in
   TParamsProofs.v). *)
From Coq Require Import NArith PeanoNat List Lia.
Import ListNotations.

(* the potential of a state: how far the nodes of [L] are from the ceiling [H] when node [x]
   stands at height [h x] *)
Definition potg {A : Type} (H : nat) (h : A -> nat) (L : list A) : nat :=
  fold_right (fun x acc => (H - h x) + acc) 0 L.

Section Potential.
  Variables (A : Type) (H : nat).
  Implicit Types (h : A -> nat) (L : list A).

  Lemma potg_cons h x L : potg H h (x :: L) = (H - h x) + potg H h L.
  Proof. reflexivity. Qed.

  Lemma potg_le h L : potg H h L <= length L * H.
  Proof. induction L as [|x L IH]; [apply le_n|]. rewrite potg_cons. cbn [length Nat.mul]. lia. Qed.

  Lemma potg_mono h h' L : (forall x, h x <= h' x) -> potg H h' L <= potg H h L.
  Proof.
    intros Hh. induction L as [|x L IH]; [apply le_n|]. rewrite !potg_cons. specialize (Hh x). lia.
  Qed.

  Lemma potg_dec h h' L n : (forall x, h x <= h' x) ->
    In n L -> h n < h' n -> h' n <= H -> potg H h' L + 1 <= potg H h L.
  Proof.
    intros Hh Hin Hlt Hle. induction L as [|x L IH]; [destruct Hin|]. rewrite !potg_cons.
    destruct Hin as [->|Hin].
    - pose proof (potg_mono h h' L Hh). lia.
    - specialize (IH Hin). specialize (Hh x). lia.
  Qed.
End Potential.

Section Worklist.
  Variable V : Type.
  Implicit Types (s : N -> V).

  Definition updg s (n : N) (v : V) : N -> V := fun m => if (m =? n)%N then v else s m.

  Lemma updg_same s n v : updg s n v n = v.
  Proof. unfold updg. rewrite N.eqb_refl. reflexivity. Qed.

  Lemma updg_other s n v m : m <> n -> updg s n v m = s m.
  Proof. intros Hmn. unfold updg. destruct (N.eqb_spec m n) as [E|_]; [contradiction|reflexivity]. Qed.

  Lemma updg_all (R : N -> V -> Prop) s n v :
    (forall m, R m (s m)) -> R n v -> forall m, R m (updg s n v m).
  Proof. intros Hs Hv m. unfold updg. destruct (N.eqb_spec m n) as [->|_]; [exact Hv|apply Hs]. Qed.

  Variable next : (N -> V) -> N -> option V.   (* None: unchanged *)
  Variable push : N -> list N.

  Fixpoint grun (fuel : nat) (wl : list N) s : option (N -> V) :=
    match wl with
    | [] => Some s
    | n :: rest =>
        match fuel with
        | O => None
        | S f => match next s n with
                 | None => grun f rest s
                 | Some v => grun f (push n ++ rest) (updg s n v)
                 end
        end
    end.

  (* [D] holds of every node that is ever popped *)
  Lemma grun_inv (D : N -> Prop) (P : list N -> (N -> V) -> Prop) :
    (forall n x, In x (push n) -> D x) ->
    (forall n rest s, D n -> P (n :: rest) s -> next s n = None -> P rest s) ->
    (forall n rest s v, D n -> P (n :: rest) s -> next s n = Some v -> P (push n ++ rest) (updg s n v)) ->
    forall fuel wl s r, (forall x, In x wl -> D x) -> P wl s -> grun fuel wl s = Some r -> P [] r.
  Proof.
    intros HD Hskip Hpush fuel.
    induction fuel as [|f IH]; intros [|n rest] s r Hwl HP Hrun; cbn [grun] in Hrun;
      try (injection Hrun as <-; exact HP); try discriminate.
    assert (Hn : D n) by (apply Hwl; left; reflexivity).
    assert (Hrest : forall x, In x rest -> D x) by (intros x Hx; apply Hwl; right; exact Hx).
    destruct (next s n) as [v|] eqn:E; [|exact (IH rest s r Hrest (Hskip n rest s Hn HP E) Hrun)].
    apply (IH (push n ++ rest) (updg s n v) r); [|exact (Hpush n rest s v Hn HP E)|exact Hrun].
    intros x Hx. apply in_app_or in Hx. destruct Hx as [Hx|Hx]; [exact (HD n x Hx)|exact (Hrest x Hx)].
  Qed.

  (* what holds of every node's value and of every new value holds at the end *)
  Lemma grun_all (D : N -> Prop) (R : N -> V -> Prop) :
    (forall n x, In x (push n) -> D x) ->
    (forall n s v, D n -> (forall m, R m (s m)) -> next s n = Some v -> R n v) ->
    forall fuel wl s r, (forall x, In x wl -> D x) -> (forall m, R m (s m)) ->
    grun fuel wl s = Some r -> forall m, R m (r m).
  Proof.
    intros HD Hstep. apply (grun_inv D (fun _ s => forall m, R m (s m)) HD); [auto|].
    intros n _ s v Hn Hs E. apply updg_all; [exact Hs|exact (Hstep n s v Hn Hs E)].
  Qed.

  (* The fixed-point rule.  [sat s m]: node [m] is satisfied in [s], which depends on the values
     of [m] and of [reads m] only; a node that is left unchanged is satisfied, and so is a node
     that has just changed unless it reads itself.  When every change of [n] pushes the nodes
     of [D] that read [n], the unsatisfied nodes of [D] stay on the work list: a node that is
     not pushed does not read [n], so it is [n] itself or does not see the change.  [E] holds of
     every node that is ever popped, as in [grun_inv]; the conclusion is about the nodes of [D],
     and a schedule may well push nodes outside [D]. *)
  Section Covers.
    Variables (E D : N -> Prop) (sat : (N -> V) -> N -> Prop) (reads : N -> list N).
    Hypothesis push_E : forall n x, In x (push n) -> E x.
    Hypothesis subscribed : forall m n, D m -> E n -> In n (reads m) -> In m (push n).
    Hypothesis sat_unchanged : forall s n, next s n = None -> sat s n.
    Hypothesis sat_changed : forall s t n v,
      next s n = Some v -> t n = v -> (forall x, In x (reads n) -> t x = s x) -> sat t n.
    Hypothesis sat_local : forall s t m,
      t m = s m -> (forall x, In x (reads m) -> t x = s x) -> sat s m -> sat t m.

    Lemma grun_covers : forall fuel wl s r,
      (forall x, In x wl -> E x) -> (forall m, D m -> ~ In m wl -> sat s m) ->
      grun fuel wl s = Some r -> forall m, D m -> sat r m.
    Proof.
      intros fuel wl s r Hwl Hcov Hrun m Hm.
      refine (grun_inv E (fun wl s => forall m, D m -> ~ In m wl -> sat s m) push_E _ _
                fuel wl s r Hwl Hcov Hrun m Hm (fun H => H)).
      - intros n rest s0 _ H En m' Hm' Hnin.
        destruct (N.eq_dec m' n) as [->|Hne]; [exact (sat_unchanged s0 n En)|].
        apply H; [exact Hm'|]. intros [Heq|Hin]; [exact (Hne (eq_sym Heq))|exact (Hnin Hin)].
      - intros n rest s0 v Hn H En m' Hm' Hnin.
        assert (Hr : forall x, In x (reads m') -> updg s0 n v x = s0 x).
        { intros x Hx. apply updg_other. intros ->. apply Hnin, in_or_app. left.
          exact (subscribed m' n Hm' Hn Hx). }
        destruct (N.eq_dec m' n) as [->|Hne]; [exact (sat_changed s0 _ n v En (updg_same s0 n v) Hr)|].
        apply (sat_local s0 _ m' (updg_other s0 n v m' Hne) Hr), H; [exact Hm'|].
        intros [Heq|Hin]; [exact (Hne (eq_sym Heq))|]. apply Hnin, in_or_app. right. exact Hin.
    Qed.
  End Covers.

  (* The termination rule: a value [v] has a height [h v] under the ceiling [H]; a change at a
     node of [L] raises that node's value, keeps [Q], and pushes at most [w] nodes of [L].  Each
     change then lowers the potential by one, so [length wl + w * potential] steps suffice. *)
  Lemma grun_total (Q : V -> Prop) (h : V -> nat) (H w : nat) (L : list N) :
    (forall n, incl (push n) L /\ length (push n) <= w) ->
    (forall n s v, In n L -> (forall m, Q (s m)) -> next s n = Some v -> Q v /\ h (s n) < h v <= H) ->
    forall fuel wl s, incl wl L -> (forall m, Q (s m)) ->
    length wl + w * potg H (fun x => h (s x)) L <= fuel -> exists r, grun fuel wl s = Some r.
  Proof.
    intros Hpush Hstep fuel.
    induction fuel as [|f IH]; intros [|n rest] s Hwl HQ Hf; cbn [grun length] in *;
      try (eexists; reflexivity); try lia.
    apply incl_cons_inv in Hwl. destruct Hwl as [Hn Hwl].
    destruct (next s n) as [v|] eqn:E; [|apply IH; [exact Hwl|exact HQ|lia]].
    destruct (Hstep n s v Hn HQ E) as (HQv & Hlt & Hle). destruct (Hpush n) as [Hi Hw].
    assert (Hmu : potg H (fun x => h (updg s n v x)) L + 1 <= potg H (fun x => h (s x)) L).
    { apply (potg_dec _ H _ _ L n); [|exact Hn|rewrite updg_same; exact Hlt|rewrite updg_same; exact Hle].
      apply (updg_all (fun x v' => h (s x) <= h v')); [intros m; apply le_n|apply Nat.lt_le_incl, Hlt]. }
    apply (Nat.mul_le_mono_l _ _ w) in Hmu.
    apply IH; [apply incl_app; assumption|apply updg_all; assumption|]. rewrite app_length. lia.
  Qed.
End Worklist.

Arguments updg {V}.
Arguments grun {V}.
