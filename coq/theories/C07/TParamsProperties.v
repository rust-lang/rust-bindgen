From Coq Require Import NArith List Bool.
From BG Require Import C07.Model C07.TParams C07.TParamsProofs.
Import ListNotations.
Open Scope N_scope.

Theorem fresh_nil_iff : forall a b, fresh a b = [] <-> incl b a.
Proof. exact TParamsProofs.fresh_nil_iff. Qed.
Print Assumptions fresh_nil_iff.

Theorem nunion_spec : forall a b x, In x (nunion a b) <-> In x a \/ In x b.
Proof. exact TParamsProofs.nunion_spec. Qed.
Print Assumptions nunion_spec.

(* the implementation reports a change when the length grew; the length stays exactly when
   nothing new was added *)
Theorem changed_iff_length : forall a b, length (nunion a b) = length a <-> incl b a.
Proof. exact TParamsProofs.changed_iff_length. Qed.
Print Assumptions changed_iff_length.

Theorem F_monotone : forall c s t n, below s t -> incl (F c s n) (F c t n).
Proof. exact TParamsProofs.F_monotone. Qed.
Print Assumptions F_monotone.

Theorem F_local : forall c s t n,
  (forall r, In r (reads c n) -> s r = t r) -> F c s n = F c t n.
Proof. exact TParamsProofs.F_local. Qed.
Print Assumptions F_local.

Theorem reads_not_self : forall c n, ~ In n (reads c n).
Proof. exact TParamsProofs.reads_not_self. Qed.
Print Assumptions reads_not_self.

(* for every schedule (any initial work list, any re-queue function) the result is
   below every assignment that is stable on the nodes the solver works on *)
Theorem run_least : forall fuel c deps wl st r (D : N -> Prop) t,
  run fuel c deps wl st = Some r ->
  within D wl -> (forall n, within D (deps n)) ->
  below st t -> stable_on c D t ->
  below r t.
Proof. exact TParamsProofs.run_least. Qed.
Print Assumptions run_least.

Theorem run_stable : forall fuel c deps wl st r (D : N -> Prop),
  run fuel c deps wl st = Some r ->
  subscribed c D deps ->
  (forall m, D m -> ~ In m wl -> stable c st m) ->
  stable_on c D r.
Proof. exact TParamsProofs.run_stable. Qed.
Print Assumptions run_stable.

Theorem run_inflationary : forall fuel c deps wl st r,
  run fuel c deps wl st = Some r -> below st r.
Proof. exact TParamsProofs.run_inflationary. Qed.
Print Assumptions run_inflationary.

(* two runs from the bottom over the same nodes, in any order and with any
   re-queue functions, that both end stable, give the same sets for every item *)
Theorem schedule_independent : forall f1 f2 c d1 d2 w1 w2 r1 r2 (D : N -> Prop),
  run f1 c d1 w1 empty = Some r1 -> run f2 c d2 w2 empty = Some r2 ->
  within D w1 -> within D w2 -> (forall n, within D (d1 n)) -> (forall n, within D (d2 n)) ->
  stable_on c D r1 -> stable_on c D r2 ->
  same r1 r2.
Proof. exact TParamsProofs.schedule_independent. Qed.
Print Assumptions schedule_independent.

(* for every schedule: if all work happens on the nodes of a finite list Dl, every
   re-queue list has at most k entries, the sets hold no duplicates and stay inside a finite
   universe U that the rules do not leave, then |wl| + |Dl| * |U| * (k + 1) steps suffice *)
Theorem run_terminates : forall c deps (Dl U : list N) (k : nat) wl st fuel,
  (forall x, In x wl -> In x Dl) -> (forall n x, In x (deps n) -> In x Dl) ->
  (forall n, (length (deps n) <= k)%nat) ->
  (forall n, NoDup (st n) /\ incl (st n) U) ->
  (forall s n, In n Dl -> (forall m, incl (s m) U) -> incl (F c s n) U) ->
  (length wl + length Dl * length U * (k + 1) <= fuel)%nat ->
  exists r, run fuel c deps wl st = Some r.
Proof. exact TParamsProofs.run_terminates. Qed.
Print Assumptions run_terminates.

(* the rules never leave a universe that contains the type parameters among the nodes worked on:
   every id in a set was put there by the TypeParam rule *)
Theorem F_closed_typeparams : forall c (Dl U : list N),
  (forall n, In n Dl -> kind_of (cg c) n = Some KTypeParam -> In n U) ->
  forall s n, In n Dl -> (forall m, incl (s m) U) -> incl (F c s n) U.
Proof. exact TParamsProofs.F_closed_typeparams. Qed.
Print Assumptions F_closed_typeparams.

(* the solver keeps the sets duplicate-free (so the length test of the implementation is the set test) *)
Theorem run_nodup : forall fuel c deps wl st r,
  run fuel c deps wl st = Some r -> (forall n, NoDup (st n)) -> forall n, NoDup (r n).
Proof. exact TParamsProofs.run_nodup. Qed.
Print Assumptions run_nodup.

Theorem unstable_nodes_spec : forall c st nodes,
  unstable_nodes c st nodes = [] <-> (forall n, In n nodes -> stable c st n).
Proof. exact TParamsProofs.unstable_nodes_spec. Qed.
Print Assumptions unstable_nodes_spec.

Theorem unsubscribed_reads_spec : forall c deps nodes,
  unsubscribed_reads c deps nodes = [] -> subscribed c (fun m => In m nodes) deps.
Proof. intros c deps nodes. apply TParamsProofs.unsubscribed_reads_iff. Qed.
Print Assumptions unsubscribed_reads_spec.

(* template<class T, class U> struct S { T a; };  S<int, float> x;  with
   1 = T, 2 = U, 3 = S, 4 = int, 5 = float, 6 = S<int, float>, 7 = struct W { S<T', int> m; } over 8 = T'.
   The run terminates, is stable, subscribed, uses T but not U, and W forwards T' through S's first slot. *)
Theorem example_run : exists c r,
  analyze 100 c = Some r /\ r 3 = [1] /\ r 6 = [] /\ r 9 = [8] /\ r 7 = [8] /\
  unstable_nodes c r (domain c) = [] /\ unsubscribed_reads c (impl_deps c) (domain c) = [].
Proof.
  (* r is what [analyze 100 ex_ctx] evaluates to: the first conjunct fixes it, the others are
     evaluated on it *)
  exists ex_ctx. eexists. split; [vm_compute; reflexivity|]. vm_compute. repeat split.
Qed.
Print Assumptions example_run.

(* a read that is NOT subscribed: an instantiation reads the set of the RESOLVED argument but is
   re-queued only when the alias it names changes; the fixed point is then reached only because the
   alias chain forwards the change (checked per run by `unstable_nodes` on the implementation's answer) *)
Theorem subscription_gap : exists c, unsubscribed_reads c (impl_deps c) (domain c) <> [].
Proof. exact TParamsProofs.subscription_gap. Qed.
Print Assumptions subscription_gap.
