(* C11 — an insensitive sink is a fold of a left-commutative step ([fold_perm]) or a sorted
   duplicate-free list, which its elements determine ([sorted_ext]); a generation then cannot see
   the iteration order, by induction on its steps. *)
From Coq Require Import NArith List Bool Sorting.Permutation Sorting.Sorted.
From BG Require Import C11.Model.
Import ListNotations.
Open Scope N_scope.

(* [F] is given by its equation on a cons, not as a fold_right, so that existsb and forallb are
   instances as they stand *)
Lemma fold_perm : forall B (F : list N -> B) (f : N -> B -> B),
  (forall x l, F (x :: l) = f x (F l)) -> (forall x y b, f x (f y b) = f y (f x b)) ->
  forall l l', Permutation l l' -> F l = F l'.
Proof.
  intros B F f HF Hf. induction 1 as [|x l l' _ IH|x y l|l l' l'' _ IH1 _ IH2].
  - reflexivity.
  - rewrite !HF, IH. reflexivity.
  - rewrite !HF. apply Hf.
  - congruence.
Qed.

Lemma insert_sorted_in : forall x l z, In z (insert_sorted x l) <-> In z (x :: l).
Proof.
  intros x l z. induction l as [|y l IH]; cbn [insert_sorted]; [reflexivity|].
  destruct (x <? y); [reflexivity|].
  destruct (N.eqb_spec x y) as [->|_]; cbn [In] in *.
  - split; [auto|intros [H|H]; auto].
  - rewrite IH. split; intros [H|[H|H]]; auto.
Qed.

Lemma insert_sorted_sorted : forall x l,
  StronglySorted N.lt l -> StronglySorted N.lt (insert_sorted x l).
Proof.
  intros x l. induction 1 as [|y l Hs IH Hy]; cbn [insert_sorted]; [repeat constructor|].
  destruct (N.ltb_spec x y) as [L|L].
  - repeat constructor; [assumption..|].
    apply (Forall_impl _ (fun z (H : y < z) => N.lt_trans _ _ _ L H)), Hy.
  - destruct (N.eqb_spec x y) as [->|Hne]; [constructor; assumption|].
    constructor; [exact IH|]. rewrite Forall_forall in *. intros z Hz.
    apply insert_sorted_in in Hz. destruct Hz as [<-|Hz]; [|apply Hy, Hz].
    apply N.le_neq. split; [exact L|intro E; apply Hne; symmetry; exact E].
Qed.

Lemma sort_dedup_sorted : forall l, StronglySorted N.lt (sort_dedup l).
Proof.
  induction l as [|x l IH]; cbn [sort_dedup fold_right]; [constructor|].
  apply insert_sorted_sorted, IH.
Qed.

Lemma sort_dedup_in : forall l z, In z (sort_dedup l) <-> In z l.
Proof.
  intros l z. induction l as [|x l IH]; cbn [sort_dedup fold_right]; [reflexivity|].
  fold (sort_dedup l). rewrite insert_sorted_in. cbn [In]. rewrite IH. reflexivity.
Qed.

Lemma sorted_ext : forall l l', StronglySorted N.lt l -> StronglySorted N.lt l' ->
  (forall z, In z l <-> In z l') -> l = l'.
Proof.
  induction l as [|x l IH]; intros [|y l'] Hs Hs' He.
  - reflexivity.
  - destruct (proj2 (He y) (or_introl eq_refl)).
  - destruct (proj1 (He x) (or_introl eq_refl)).
  - apply StronglySorted_inv in Hs, Hs'. destruct Hs as [Hs Hx], Hs' as [Hs' Hy].
    rewrite Forall_forall in Hx, Hy.
    (* each head is in the other list, and below its tail *)
    assert (x = y) as <-.
    { destruct (proj1 (He x) (or_introl eq_refl)) as [E|Hx']; [symmetry; exact E|].
      destruct (proj2 (He y) (or_introl eq_refl)) as [E|Hy']; [exact E|].
      destruct (N.lt_asymm _ _ (Hx y Hy') (Hy x Hx')). }
    f_equal. apply IH; [exact Hs|exact Hs'|]. intro z. split; intro Hz.
    + destruct (proj1 (He z) (or_intror Hz)) as [<-|H']; [|exact H'].
      destruct (N.lt_irrefl _ (Hx _ Hz)).
    + destruct (proj2 (He z) (or_intror Hz)) as [<-|H']; [|exact H'].
      destruct (N.lt_irrefl _ (Hy _ Hz)).
Qed.

Lemma sort_dedup_perm : forall l l', Permutation l l' -> sort_dedup l = sort_dedup l'.
Proof.
  intros l l' H. apply sorted_ext; try apply sort_dedup_sorted.
  intro z. rewrite !sort_dedup_in. split; intro Hz.
  - eapply Permutation_in; eassumption.
  - eapply Permutation_in; [apply Permutation_sym|]; eassumption.
Qed.

Lemma insensitive_sink_perm : forall s l l',
  insensitive s = true -> Permutation l l' -> run_sink s l = run_sink s l'.
Proof.
  intros s l l' Hi Hp. destruct s; try discriminate Hi; cbn [run_sink]; f_equal.
  - apply (fold_perm _ (existsb p) (fun x b => p x || b)); [reflexivity| |exact Hp].
    intros x y b. destruct (p x), (p y); reflexivity.
  - apply (fold_perm _ (forallb p) (fun x b => p x && b)); [reflexivity| |exact Hp].
    intros x y b. destruct (p x), (p y); reflexivity.
  - rewrite (Permutation_length Hp). reflexivity.
  - apply sort_dedup_perm, Hp.
  - apply (fold_perm _ (fold_right N.max 0) N.max); [reflexivity| |exact Hp].
    intros x y b. rewrite !N.max_assoc, (N.max_comm x y). reflexivity.
  - apply (fold_perm _ (fold_right N.add 0) N.add); [reflexivity|exact N.add_shuffle3|exact Hp].
Qed.

Lemma exec_cons : forall state shuffle seed st p x,
  exec state shuffle seed (st :: p) x = exec state shuffle seed p (exec1 state shuffle seed x st).
Proof. reflexivity. Qed.

Lemma order_independent : forall (state : Type) (sh1 sh2 : N -> list N -> list N),
  (forall seed l, Permutation (sh1 seed l) l) -> (forall seed l, Permutation (sh2 seed l) l) ->
  forall p, forallb (step_ok state) p = true ->
  forall s1 s2 x, exec state sh1 s1 p x = exec state sh2 s2 p x.
Proof.
  intros state sh1 sh2 H1 H2 p. induction p as [|st p IH]; intros Hok s1 s2 x; [reflexivity|].
  cbn [forallb] in Hok. apply andb_true_iff in Hok. destruct Hok as [Hst Hp].
  rewrite !exec_cons.
  assert (exec1 state sh1 s1 x st = exec1 state sh2 s2 x st) as ->; [|apply IH, Hp].
  destruct st as [f|s sel k]; cbn [exec1]; [reflexivity|]. f_equal.
  apply insensitive_sink_perm; [exact Hst|].
  eapply Permutation_trans; [apply H1|apply Permutation_sym, H2].
Qed.

Lemma once_constant : forall (env value : Type) (init : env -> value) e c n,
  (c = None \/ c = Some (init e)) ->
  Forall (fun v => v = init e) (snd (reads env value init e c n)).
Proof.
  intros env value init e c n. revert c.
  induction n as [|n IH]; intros c Hc; cbn [reads]; [constructor|].
  assert (read env value init e c = (Some (init e), init e)) as ->
    by (destruct Hc as [->| ->]; reflexivity).
  specialize (IH (Some (init e)) (or_intror eq_refl)).
  destruct (reads env value init e (Some (init e)) n) as [c'' vs].
  constructor; [reflexivity|exact IH].
Qed.

Example ex_sortdedup : sort_dedup [3; 1; 3; 2] = [1; 2; 3]. Proof. reflexivity. Qed.
Example ex_pipeline : forall seed,
  exec (list N) (fun s l => if N.even s then l else rev l) seed
       [IterSeeded (list N) SSortDedup (fun x => x) (fun _ r => match r with RList l => l | _ => [] end)] [3; 1; 2] = [1; 2; 3].
Proof. intro seed. unfold exec. cbn [fold_left exec1]. destruct (N.even seed); reflexivity. Qed.
