From Coq Require Import NArith List Bool Sorting.Permutation.
From BG Require Import C11.Model C11.Proofs.
From BGgen Require Import C11_Table.
Import ListNotations.
Open Scope N_scope.

Theorem insensitive_sink_perm : forall s l l',
  insensitive s = true -> Permutation l l' -> run_sink s l = run_sink s l'.
Proof. exact C11.Proofs.insensitive_sink_perm. Qed.
Print Assumptions insensitive_sink_perm.

(* the two sinks that [insensitive] leaves out do see the order *)
Theorem sensitive_sinks_refuted :
  (exists p l l', Permutation l l' /\ run_sink (SFindFirst p) l <> run_sink (SFindFirst p) l') /\
  (exists l l', Permutation l l' /\ run_sink SCollectVec l <> run_sink SCollectVec l').
Proof.
  split.
  - exists (fun _ => true), [1; 2], [2; 1]. split; [apply perm_swap|]. cbn. discriminate.
  - exists [1; 2], [2; 1]. split; [apply perm_swap|]. cbn. discriminate.
Qed.
Print Assumptions sensitive_sinks_refuted.

(* a generation all of whose seeded iterations end in insensitive sinks does not depend on the seed
   (per-process RandomState, addresses) *)
Theorem seed_independent : forall (state : Type) (shuffle : N -> list N -> list N),
  (forall seed l, Permutation (shuffle seed l) l) ->
  forall p, forallb (step_ok state) p = true ->
  forall s1 s2 x, exec state shuffle s1 p x = exec state shuffle s2 p x.
Proof. intros state shuffle Hsh. apply order_independent; exact Hsh. Qed.
Print Assumptions seed_independent.

(* the inventory regenerated from the source on this run: every iteration over a Random or
   pointer-keyed container ends in an insensitive sink (Fx containers keyed by values iterate in an
   order that is a function of their insertion history) *)
Theorem all_sites_ok : forallb site_ok C11_Table.sites = true.
Proof. vm_compute. reflexivity. Qed.
Print Assumptions all_sites_ok.

(* init-once process state: reads that follow one another in one environment all return init(env) *)
Theorem once_constant : forall (env value : Type) (init : env -> value) e c n,
  (c = None \/ c = Some (init e)) ->
  Forall (fun v => v = init e) (snd (reads env value init e c n)).
Proof. exact C11.Proofs.once_constant. Qed.
Print Assumptions once_constant.
