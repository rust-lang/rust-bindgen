From Coq Require Import NArith List Bool Lia.
From BG Require Import C12.Model.
Import ListNotations.
Open Scope N_scope.

Lemma error_messages_In ds m :
  In m (error_messages ds) <-> exists sev, In (sev, m) ds /\ 3 <= sev.
Proof.
  unfold error_messages. rewrite in_map_iff. split.
  - intros [[sev m'] [<- Hin]]. apply filter_In in Hin. destruct Hin as [Hin Hs].
    exists sev. split; [exact Hin | apply N.leb_le, Hs].
  - intros [sev [Hin Hs]]. exists (sev, m). split; [reflexivity | ].
    apply filter_In. split; [exact Hin | apply N.leb_le, Hs].
Qed.

Lemma generate_edition_ok eg ea ph ds cg : (eg = true -> ea = true) ->
  generate eg ea ph ds cg = generate false false ph ds cg.
Proof.
  intros He. unfold generate.
  destruct eg; [rewrite (He eq_refl) | ]; reflexivity.
Qed.

Lemma path_errors_specific eg ea ds cg p :
  (eg = true -> ea = true) ->
  generate eg ea (Some p) ds cg =
  match p with
  | Missing => ErrNotExist | Directory => ErrFolderAsHeader | Unreadable => ErrInsufficientPermissions
  | Readable => generate eg ea (Some Readable) ds cg
  end.
Proof.
  intros He. rewrite !(generate_edition_ok eg ea) by exact He. destruct p; reflexivity.
Qed.

Lemma outcome_total eg ea ph ds cg : exists o, generate eg ea ph ds cg = o.
Proof. eexists. reflexivity. Qed.

Lemma old_agrees_elsewhere dbg e m p pre :
  (pre = NightlyTag -> m <> 0) -> old_target_of_parts dbg e m p pre = OldOk (target_of_parts e m p pre).
Proof.
  intros H. unfold old_target_of_parts, target_of_parts. destruct pre; try reflexivity.
  destruct (N.eqb_spec m 0) as [-> | Hn]; [exfalso; apply (H eq_refl); reflexivity | reflexivity].
Qed.

Lemma resolve_seen_grows : forall fuel next seen n r,
  resolve fuel next seen n = Some r -> True.
Proof. intros; exact I. Qed.

Lemma incl_nodup_length (l univ : list N) : NoDup l -> incl l univ -> (length l <= length univ)%nat.
Proof. intros Hn Hi. apply NoDup_incl_length; assumption. Qed.

Lemma resolve_terminates : forall (univ : list N) next,
  (forall n m, next n = Some m -> In m univ) ->
  forall fuel seen n, NoDup seen -> incl seen univ -> In n univ ->
  (length univ - length seen < fuel)%nat ->
  exists r, resolve fuel next seen n = Some r.
Proof.
  intros univ next Hcl fuel.
  induction fuel as [ | f IH]; intros seen n Hnd Hinc Hn Hf; [lia | ].
  cbn [resolve]. destruct (existsb (N.eqb n) seen) eqn:Ex; [eexists; reflexivity | ].
  destruct (next n) as [m | ] eqn:Hm; [ | eexists; reflexivity].
  (* a step that does not stop adds a new item to [seen], which stays a
     duplicate-free part of the items: hence the bound *)
  assert (Hnd' : NoDup (n :: seen)).
  { constructor; [ | exact Hnd]. intros Hin.
    rewrite (proj2 (existsb_exists _ _)) in Ex; [discriminate Ex | ].
    exists n. split; [exact Hin | apply N.eqb_refl]. }
  assert (Hinc' : incl (n :: seen) univ) by (apply incl_cons; assumption).
  apply IH; [exact Hnd' | exact Hinc' | exact (Hcl n m Hm) | ].
  pose proof (incl_nodup_length _ _ Hnd' Hinc') as Hle. cbn [length] in Hle |- *. lia.
Qed.
