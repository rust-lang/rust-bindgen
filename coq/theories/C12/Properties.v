From Coq Require Import NArith List Bool Lia.
From BG Require Import C12.Model C12.Proofs.
Import ListNotations.
Open Scope N_scope.

Theorem outcome_total : forall eg ea ph ds cg, exists o, generate eg ea ph ds cg = o.
Proof. exact Proofs.outcome_total. Qed.
Print Assumptions outcome_total.

Theorem accepted_yields_bindings : forall eg ea ds,
  (eg = true -> ea = true) -> error_messages ds = [] ->
  generate eg ea (Some Readable) ds true = Bindings.
Proof.
  intros eg ea ds He Hd. rewrite generate_edition_ok by exact He.
  unfold generate. cbn [andb]. rewrite Hd. reflexivity.
Qed.
Print Assumptions accepted_yields_bindings.

Theorem rejected_yields_diagnostics : forall eg ea ds cg,
  (eg = true -> ea = true) -> error_messages ds <> [] ->
  exists msgs, msgs <> [] /\ generate eg ea (Some Readable) ds cg = ErrClangDiagnostic msgs /\
               forall m, In m msgs <-> exists sev, In (sev, m) ds /\ 3 <= sev.
Proof.
  intros eg ea ds cg He Hd. exists (error_messages ds).
  split; [exact Hd | split; [ | apply error_messages_In]].
  rewrite generate_edition_ok by exact He. unfold generate. cbn [andb].
  destruct (error_messages ds); [contradiction | reflexivity].
Qed.
Print Assumptions rejected_yields_diagnostics.

Theorem path_errors_specific : forall eg ea ds cg p,
  (eg = true -> ea = true) ->
  generate eg ea (Some p) ds cg =
  match p with
  | Missing => ErrNotExist | Directory => ErrFolderAsHeader | Unreadable => ErrInsufficientPermissions
  | Readable => generate eg ea (Some Readable) ds cg
  end.
Proof. exact Proofs.path_errors_specific. Qed.
Print Assumptions path_errors_specific.

Theorem edition_rejected : forall ph ds cg, generate true false ph ds cg = ErrUnsupportedEdition.
Proof. reflexivity. Qed.
Print Assumptions edition_rejected.

Theorem target_no_underflow : forall e m p pre t,
  target_of_parts e m p pre = Some t ->
  match t with TStable m' _ => m' <= m /\ e <= m' | TNightly => False end.
Proof.
  intros e m p pre t. unfold target_of_parts.
  destruct pre.
  1-2: destruct (N.ltb_spec m e); intros [= <-]; lia.
  destruct (N.eqb_spec m 0); [discriminate | ].
  destruct (N.ltb_spec (m - 1) e); intros [= <-]; lia.
Qed.
Print Assumptions target_no_underflow.

(* the code before the fix: "1.0-nightly" panics (debug) or becomes the newest target (release) *)
Theorem old_target_refuted :
  old_target_of_parts true 51 0 0 NightlyTag = OldPanic /\
  old_target_of_parts false 51 0 0 NightlyTag = OldOk (Some (TStable U64MAX U64MAX)) /\
  target_of_parts 51 0 0 NightlyTag = None.
Proof. repeat split; reflexivity. Qed.
Print Assumptions old_target_refuted.

Theorem resolve_terminates : forall (univ : list N) next,
  (forall n m, next n = Some m -> In m univ) ->
  forall fuel seen n, NoDup seen -> incl seen univ -> In n univ ->
  (length univ - length seen < fuel)%nat ->
  exists r, resolve fuel next seen n = Some r.
Proof. exact Proofs.resolve_terminates. Qed.
Print Assumptions resolve_terminates.

Example resolve_cycle_nonvacuous :
  resolve 4 (fun n => if n =? 1 then Some 2 else if n =? 2 then Some 3 else if n =? 3 then Some 1 else None) [] 1 = Some 1.
Proof. reflexivity. Qed.
