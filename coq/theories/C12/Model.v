(* C12 — model of the logic that DECIDES the outcome of a generation
   (Builder::generate / Bindings::generate / parse() in bindgen/lib.rs) and of the
   numeric part of RustTarget::from_str (bindgen/features.rs).  Definitions only.
   Panic-freedom of the 33 kLoC in between is not modelled: it is sampled. *)
From Coq Require Import NArith List Bool.
Import ListNotations.
Open Scope N_scope.

(* std::fs::metadata(last input header) *)
Inductive path_state := Missing | Directory | Unreadable | Readable.

Inductive outcome :=
| ErrUnsupportedEdition
| ErrNotExist | ErrFolderAsHeader | ErrInsufficientPermissions
| ErrClangDiagnostic (messages : list N)   (* the formatted diagnostics of severity >= Error *)
| ErrCodegen
| Bindings.

(* one clang diagnostic: (severity, message id); CXDiagnostic_Error = 3 *)
Definition diag := (N * N)%type.
Definition error_messages (ds : list diag) : list N :=
  map snd (filter (fun d => 3 <=? fst d) ds).

Definition generate (edition_given edition_available : bool)
           (last_header : option path_state) (ds : list diag) (codegen_ok : bool) : outcome :=
  if edition_given && negb edition_available then ErrUnsupportedEdition
  else match last_header with
       | Some Missing => ErrNotExist
       | Some Directory => ErrFolderAsHeader
       | Some Unreadable => ErrInsufficientPermissions
       | _ =>
           match error_messages ds with
           | [] => if codegen_ok then Bindings else ErrCodegen
           | msgs => ErrClangDiagnostic msgs
           end
       end.

(* ---- RustTarget::from_str after the textual split: minor, patch, pre-release tag ---- *)
Inductive prerelease := Stable | Beta | NightlyTag.
Inductive target := TStable (minor patch : N) | TNightly.

Definition U64MAX : N := 18446744073709551615.

(* current code: checked_sub *)
Definition target_of_parts (earliest : N) (minor patch : N) (pre : prerelease) : option target :=
  match pre with
  | NightlyTag =>
      if minor =? 0 then None
      else if minor - 1 <? earliest then None else Some (TStable (minor - 1) U64MAX)
  | _ => if minor <? earliest then None else Some (TStable minor patch)
  end.

(* the code before the fix: `minor -= 1` on a u64 — in a release build it wraps, in a
   debug build it panics ([OldPanic]) *)
Inductive old_result := OldOk (t : option target) | OldPanic.
Definition old_target_of_parts (debug : bool) (earliest minor patch : N) (pre : prerelease) : old_result :=
  match pre with
  | NightlyTag =>
      if minor =? 0 then
        if debug then OldPanic else OldOk (Some (TStable U64MAX U64MAX))
      else OldOk (if minor - 1 <? earliest then None else Some (TStable (minor - 1) U64MAX))
  | _ => OldOk (if minor <? earliest then None else Some (TStable minor patch))
  end.

(* ---- ItemResolver::resolve: follow type references / aliases with a seen-set ---- *)
(* next n = Some m when item n is a reference / alias to m that the resolver follows *)
Fixpoint resolve (fuel : nat) (next : N -> option N) (seen : list N) (n : N) : option N :=
  match fuel with
  | O => None
  | S f =>
      if existsb (N.eqb n) seen then Some n     (* cycle detected: stop here *)
      else match next n with
           | Some m => resolve f next (n :: seen) m
           | None => Some n
           end
  end.
