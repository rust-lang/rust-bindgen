From Coq Require Import NArith List Bool Ascii String.
From BG Require Import C01.Model C01.Wrap C01.Proofs.
From BGgen Require Import C01_Table.
Import ListNotations.
Open Scope N_scope.

(* mangling twice is mangling once.  The empty string must not be a keyword: with kw = [""; "_"] (kw_ok holds)
   mangle kw "" = "_" and mangle kw "_" = "__" *)
Theorem mangle_idempotent : forall kw s, kw_ok kw = true -> smem [] kw = false ->
  mangle kw (mangle kw s) = mangle kw s.
Proof. exact C01.Proofs.mangle_idempotent. Qed.
Print Assumptions mangle_idempotent.

(* the body of every method wrapper names exactly the parameters its own signature declares, in order: for
   every parameter list (any mix of named and unnamed parameters, keywords and `$` names included) *)
Theorem call_site_matches_declaration : forall kw args,
  kw_ok kw = true -> smem [] kw = false -> call_names kw args = decl_names kw args.
Proof. intros kw args Hok He. apply call_decl_from; assumption. Qed.
Print Assumptions call_site_matches_declaration.

(* ... instantiated with the keyword list of the current source *)
Theorem call_site_matches_declaration_gen : forall args, call_names keywords args = decl_names keywords args.
Proof. intros args. apply call_site_matches_declaration; vm_compute; reflexivity. Qed.
Print Assumptions call_site_matches_declaration_gen.

(* numbering the unnamed parameters at the call site by their position, not by their rank among the unnamed
   ones, breaks it: one named parameter in front of an unnamed one is enough *)
Theorem positional_numbering_refuted : exists args,
  call_names_positional keywords 1 args <> decl_names keywords args.
Proof.
  exists [Some (of_string "x"); None].
  intro H. vm_compute in H. discriminate H.
Qed.
Print Assumptions positional_numbering_refuted.

(* ... and is harmless when every unnamed parameter's rank equals its position; proved for parameter lists
   that are all unnamed *)
Theorem positional_numbering_all_unnamed : forall kw n,
  call_names_positional kw 1 (repeat None n) = decl_names kw (repeat None n).
Proof. intros kw n. exact (positional_from_all_unnamed kw n 0). Qed.
Print Assumptions positional_numbering_all_unnamed.

(* the declared names need not be distinct: a parameter literally called arg<k> clashes with the k-th unnamed one
   (known finding C01-rustc:E0415:duplicate-name) *)
Theorem declared_names_clash_refuted : exists args,
  NoDup (flat_map (fun a => match a with Some n => [n] | None => [] end) args) /\ ~ NoDup (decl_names keywords args).
Proof.
  exists [Some (of_string "arg1"); None]. split.
  - change (NoDup [of_string "arg1"]). constructor; [intros []|constructor].
  - intro H. vm_compute in H. apply NoDup_cons_iff, proj1 in H. apply H. left. reflexivity.
Qed.
Print Assumptions declared_names_clash_refuted.

Example wrap_example :
  decl_names keywords [Some (of_string "data"); None; Some (of_string "type"); None]
    = [of_string "data"; of_string "arg1"; of_string "type_"; of_string "arg2"] /\
  call_names keywords [Some (of_string "data"); None; Some (of_string "type"); None]
    = [of_string "data"; of_string "arg1"; of_string "type_"; of_string "arg2"] /\
  kw_ok keywords = true.
Proof. vm_compute. repeat split; reflexivity. Qed.
