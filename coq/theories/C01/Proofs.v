(* C01 — the theory of names.  The generated keyword table is NOT imported here: every lemma is
   stated for an arbitrary keyword list [kw] with side conditions that Properties.v discharges by
   computation on the regenerated list. *)
From Coq Require Import String NArith List Bool Lia.
From BG Require Import C01.Model C01.Wrap.
Import ListNotations.
Open Scope N_scope.

Lemma str_eqb_refl : forall a, str_eqb a a = true.
Proof. induction a; simpl; [reflexivity|]. rewrite N.eqb_refl, IHa. reflexivity. Qed.

Lemma str_eqb_eq : forall a b, str_eqb a b = true -> a = b.
Proof.
  induction a; destruct b; simpl; intros H; try discriminate; [reflexivity|].
  apply andb_prop in H. destruct H as [H1 H2].
  apply N.eqb_eq in H1. apply IHa in H2. subst. reflexivity.
Qed.

Lemma smem_In : forall s l, smem s l = true -> In s l.
Proof.
  unfold smem. intros s l H. apply existsb_exists in H. destruct H as [x [Hin He]].
  apply str_eqb_eq in He. subst. exact Hin.
Qed.

Lemma In_smem : forall s l, In s l -> smem s l = true.
Proof.
  unfold smem. intros s l H. apply existsb_exists. exists s. split; [assumption|apply str_eqb_refl].
Qed.

Lemma ends_with_underscore_snoc : forall x, ends_with_underscore (x ++ [underscore]) = true.
Proof. intros. unfold ends_with_underscore. rewrite rev_unit. reflexivity. Qed.

Lemma ends_with_digit_snoc : forall x c, ends_with_digit (x ++ [c]) = is_digit c.
Proof. intros. unfold ends_with_digit. rewrite rev_unit. reflexivity. Qed.

Lemma forallb_rev : forall A (f : A -> bool) l, forallb f l = true -> forallb f (rev l) = true.
Proof.
  intros A f l H. rewrite forallb_forall in *. intros x Hin. apply H, in_rev, Hin.
Qed.

Lemma replace_special_cons : forall b t,
  replace_special (b :: t) = (if is_special b then underscore else b) :: replace_special t.
Proof. reflexivity. Qed.

Lemma replace_special_id : forall s, existsb is_special s = false -> replace_special s = s.
Proof.
  induction s as [|a s IH]; intros H; [reflexivity|].
  simpl existsb in H. apply orb_false_elim in H. destruct H as [Ha Hs].
  rewrite replace_special_cons, Ha, (IH Hs). reflexivity.
Qed.

Lemma replace_special_nospecial : forall s, existsb is_special (replace_special s) = false.
Proof.
  induction s as [|a s IH]; [reflexivity|].
  rewrite replace_special_cons. cbn [existsb]. rewrite IH, orb_false_r.
  destruct (is_special a) eqn:E; [reflexivity|exact E].
Qed.

Lemma mangle_suffixed : forall kw s, existsb is_special s || smem s kw = true ->
  mangle kw s = replace_special s ++ [underscore].
Proof. intros kw s C. unfold mangle. rewrite C. reflexivity. Qed.

Lemma mangle_plain : forall kw s, existsb is_special s || smem s kw = false -> mangle kw s = s.
Proof. intros kw s C. unfold mangle. rewrite C. reflexivity. Qed.

Lemma kw_ok_snoc : forall l t, kw_ok l = true -> t <> [] -> smem (t ++ [underscore]) l = false.
Proof.
  intros l t Hok Ht.
  destruct (smem (t ++ [underscore]) l) eqn:E; [exfalso|reflexivity].
  apply smem_In in E. unfold kw_ok in Hok. rewrite forallb_forall in Hok.
  specialize (Hok _ E). cbv beta in Hok. rewrite ends_with_underscore_snoc in Hok.
  apply str_eqb_eq in Hok.
  destruct t as [|b t]; [apply Ht; reflexivity|].
  injection Hok as _ Hok. apply app_eq_nil in Hok. destruct Hok as [_ Hok]. discriminate.
Qed.

(* [smem [] kw = false]: otherwise the empty string would be mangled to `_` *)
Lemma suffixed_not_in : forall kw l s, kw_ok l = true -> smem [] kw = false ->
  existsb is_special s || smem s kw = true ->
  smem (replace_special s ++ [underscore]) l = false.
Proof.
  intros kw l s Hok He C. apply kw_ok_snoc; [exact Hok|].
  destruct s; [|discriminate]. cbn [existsb orb] in C. rewrite He in C. discriminate.
Qed.

Lemma mangle_avoids : forall kw l,
  forallb (fun r => smem r kw) l = true -> kw_ok l = true -> smem [] kw = false ->
  forall s, smem (mangle kw s) l = false.
Proof.
  intros kw l H1 H2 H3 s. destruct (existsb is_special s || smem s kw) eqn:C.
  - rewrite (mangle_suffixed _ _ C). apply (suffixed_not_in kw); assumption.
  - rewrite (mangle_plain _ _ C). apply orb_false_elim in C. destruct C as [_ C].
    destruct (smem s l) eqn:E; [|reflexivity].
    apply smem_In in E. rewrite forallb_forall in H1. rewrite (H1 _ E) in C. discriminate.
Qed.

Lemma mangle_idempotent : forall kw s, kw_ok kw = true -> smem [] kw = false ->
  mangle kw (mangle kw s) = mangle kw s.
Proof.
  intros kw s Hok He. destruct (existsb is_special s || smem s kw) eqn:C.
  - rewrite (mangle_suffixed _ _ C). apply mangle_plain.
    rewrite existsb_app, replace_special_nospecial. exact (suffixed_not_in kw kw s Hok He C).
  - rewrite (mangle_plain _ _ C). exact (mangle_plain _ _ C).
Qed.

Lemma replace_special_ident_chars : forall s, forallb c_ident_char s = true ->
  forallb rust_ident_char (replace_special s) = true.
Proof.
  induction s as [|a s IH]; intros H; [reflexivity|].
  rewrite replace_special_cons. simpl forallb in *.
  apply andb_prop in H. destruct H as [Ha Hs]. rewrite (IH Hs), andb_true_r.
  destruct (is_special a) eqn:E; [reflexivity|].
  unfold c_ident_char in Ha. rewrite E, orb_false_r in Ha. exact Ha.
Qed.

Lemma rust_ident_intro : forall b t, is_digit b = false ->
  forallb rust_ident_char (b :: t) = true -> b :: t <> [underscore] -> rust_ident (b :: t) = true.
Proof.
  intros b t Hd Hall Hne. unfold rust_ident. rewrite Hd, Hall.
  destruct (str_eqb (b :: t) [underscore]) eqn:E; [|reflexivity].
  apply str_eqb_eq in E. contradiction.
Qed.

Lemma mangle_rust_ident : forall kw, smem [underscore] kw = true ->
  forall s, c_ident s = true -> rust_ident (mangle kw s) = true.
Proof.
  intros kw HU s Hc. destruct s as [|b t]; [discriminate|].
  unfold c_ident in Hc. apply andb_prop in Hc. destruct Hc as [Hd Hall].
  apply negb_true_iff in Hd.
  destruct (existsb is_special (b :: t) || smem (b :: t) kw) eqn:C.
  - rewrite (mangle_suffixed _ _ C).
    pose proof (replace_special_ident_chars _ Hall) as HR. rewrite replace_special_cons in *.
    apply rust_ident_intro.
    + destruct (is_special b); [reflexivity|exact Hd].
    + rewrite app_comm_cons, forallb_app, HR. reflexivity.
    + intro E. injection E as _ E. apply app_eq_nil in E. destruct E as [_ E]. discriminate.
  - rewrite (mangle_plain _ _ C). apply orb_false_elim in C. destruct C as [Cs Ck].
    apply rust_ident_intro; [exact Hd| |].
    + rewrite <- (replace_special_id _ Cs). apply replace_special_ident_chars, Hall.
    + intro E. rewrite E, HU in Ck. discriminate.
Qed.

Lemma mangle_collision_type : forall kw,
  smem (of_string "type") kw = true -> smem (of_string "type_") kw = false ->
  mangle kw (of_string "type") = mangle kw (of_string "type_").
Proof.
  intros kw H1 H2. unfold mangle. rewrite H1, H2. reflexivity.
Qed.

Lemma mangle_collision_refuted : forall kw,
  smem (of_string "type") kw = true -> smem (of_string "type_") kw = false ->
  exists a b, a <> b /\ c_ident a = true /\ c_ident b = true /\ mangle kw a = mangle kw b.
Proof.
  intros kw H1 H2. exists (of_string "type"), (of_string "type_").
  repeat split; [discriminate|exact (mangle_collision_type kw H1 H2)].
Qed.

Definition val (s : str) : N := fold_left (fun a c => a * 10 + (c - 48)) s 0.

Lemma val_snoc : forall x c, val (x ++ [c]) = val x * 10 + (c - 48).
Proof. intros. unfold val. rewrite fold_left_app. reflexivity. Qed.

(* [dec] is [dec_aux 40].  The lemmas below are about [dec_aux f n []] with the fuel a variable; where
   one is applied to [dec], [unfold dec] comes first, in the goal, before anything is introduced:
   unification, [change] or [unfold dec in H] would unroll the fixpoint forty times on both sides. *)
Lemma dec_aux_S : forall f n acc,
  dec_aux (S f) n acc =
  if n / 10 =? 0 then (48 + n mod 10) :: acc else dec_aux f (n / 10) ((48 + n mod 10) :: acc).
Proof. reflexivity. Qed.

Lemma dec_aux_acc : forall f n acc, dec_aux f n acc = dec_aux f n [] ++ acc.
Proof.
  induction f; intros n acc; [reflexivity|].
  rewrite !dec_aux_S. destruct (n / 10 =? 0); [reflexivity|].
  rewrite IHf. rewrite (IHf _ [48 + n mod 10]). rewrite <- app_assoc. reflexivity.
Qed.

Lemma dec_aux_snoc : forall f n,
  dec_aux (S f) n [] =
  if n / 10 =? 0 then [48 + n mod 10] else dec_aux f (n / 10) [] ++ [48 + n mod 10].
Proof.
  intros. rewrite dec_aux_S. destruct (n / 10 =? 0); [reflexivity|apply dec_aux_acc].
Qed.

Lemma val_dec_aux : forall f n, n < 10 ^ N.of_nat f -> val (dec_aux f n []) = n.
Proof.
  induction f; intros n H.
  - change (10 ^ N.of_nat 0) with 1 in H. assert (n = 0) by lia. subst. reflexivity.
  - rewrite dec_aux_snoc. rewrite Nat2N.inj_succ, N.pow_succ_r' in H.
    assert (HD : n = 10 * (n / 10) + n mod 10) by (apply N.div_mod; discriminate).
    assert (HM : n mod 10 < 10) by (apply N.mod_lt; discriminate).
    destruct (n / 10 =? 0) eqn:E.
    + apply N.eqb_eq in E.
      change (val [48 + n mod 10]) with (0 * 10 + (48 + n mod 10 - 48)).
      generalize dependent (n mod 10). generalize dependent (n / 10). intros. lia.
    + rewrite val_snoc, IHf.
      * generalize dependent (n mod 10). generalize dependent (n / 10). intros. lia.
      * apply N.div_lt_upper_bound; [discriminate|exact H].
Qed.

Definition inj_below (B : N) : Prop := forall j k, j < B -> k < B -> dec j = dec k -> j = k.

Lemma dec_inj : inj_below (10 ^ 40).
Proof.
  unfold inj_below, dec. intros j k Hj Hk E.
  rewrite <- (val_dec_aux 40 j Hj), <- (val_dec_aux 40 k Hk), E. reflexivity.
Qed.

Lemma drop_digit : forall p P n, 0 < p -> 0 < P ->
  (p * (10 * P) + n) mod 10 = n mod 10 /\
  (p * (10 * P) + n) / 10 = p * P + n / 10 /\
  (p * P + n / 10 =? 0) = false.
Proof.
  intros p P n Hp HP. rewrite (N.mul_comm 10 P), N.mul_assoc, (N.add_comm _ n).
  rewrite N.mod_add, N.div_add by discriminate.
  split; [reflexivity|]. split; [apply N.add_comm|].
  apply N.eqb_neq. intro E. apply N.eq_add_0 in E. destruct E as [E _].
  apply N.eq_mul_0 in E. destruct E as [E|E]; rewrite E in *; discriminate.
Qed.

(* fuel [f] renders [f] digits at most: what stands above them does not reach the output, as long
   as it is not zero *)
Lemma dec_aux_high : forall f q q' n acc, 0 < q -> 0 < q' ->
  dec_aux f (q * 10 ^ N.of_nat f + n) acc = dec_aux f (q' * 10 ^ N.of_nat f + n) acc.
Proof.
  induction f as [|f IH]; intros q q' n acc Hq Hq'; [reflexivity|].
  assert (HP : 0 < 10 ^ N.of_nat f) by (apply N.neq_0_lt_0, N.pow_nonzero; discriminate).
  rewrite Nat2N.inj_succ, N.pow_succ_r'.
  destruct (drop_digit q _ n Hq HP) as (M & D & Z), (drop_digit q' _ n Hq' HP) as (M' & D' & Z').
  rewrite !dec_aux_S, M, M', D, D', Z, Z'. apply IH; assumption.
Qed.

Lemma dec_not_injective : forall q q' n, 0 < q -> 0 < q' ->
  dec (q * 10 ^ 40 + n) = dec (q' * 10 ^ 40 + n).
Proof. intros. unfold dec. apply (dec_aux_high 40); assumption. Qed.

Lemma digit_char : forall n, is_digit (48 + n mod 10) = true.
Proof.
  intros. assert (HM : n mod 10 < 10) by (apply N.mod_lt; discriminate).
  unfold is_digit. generalize dependent (n mod 10). intros r HM.
  apply andb_true_intro; split; apply N.leb_le; lia.
Qed.

Lemma dec_aux_digits : forall f n, forallb is_digit (dec_aux f n []) = true.
Proof.
  induction f; intros n; [reflexivity|].
  rewrite dec_aux_snoc. destruct (n / 10 =? 0).
  - cbn [forallb]. rewrite digit_char. reflexivity.
  - rewrite forallb_app, IHf. cbn [forallb]. rewrite digit_char. reflexivity.
Qed.

Lemma dec_digits : forall k, forallb is_digit (dec k) = true.
Proof. intros. unfold dec. apply dec_aux_digits. Qed.

Lemma ends_with_digit_app_dec : forall m k, ends_with_digit (m ++ dec k) = true.
Proof.
  intros. unfold dec. rewrite dec_aux_snoc.
  destruct (k / 10 =? 0); rewrite ?app_assoc, ends_with_digit_snoc; apply digit_char.
Qed.

Definition hd_digit (x : str) : bool := match x with b :: _ => is_digit b | [] => false end.

(* equal texts that start with digits and go on with a non-digit have the same digits; used on
   reversed strings, where [ends_with_digit s] is [hd_digit (rev s)] *)
Lemma strip : forall p q x y,
  forallb is_digit p = true -> forallb is_digit q = true ->
  hd_digit x = false -> hd_digit y = false ->
  p ++ x = q ++ y -> p = q /\ x = y.
Proof.
  induction p as [|a p IH]; destruct q as [|c q]; simpl; intros x y Hp Hq Hx Hy E.
  - split; [reflexivity|exact E].
  - subst x. simpl in Hx. apply andb_prop in Hq. destruct Hq as [Hq _].
    rewrite Hq in Hx. discriminate.
  - subst y. simpl in Hy. apply andb_prop in Hp. destruct Hp as [Hp _].
    rewrite Hp in Hy. discriminate.
  - injection E as E1 E2. subst c.
    apply andb_prop in Hp. destruct Hp as [_ Hp]. apply andb_prop in Hq. destruct Hq as [_ Hq].
    destruct (IH q x y Hp Hq Hx Hy E2) as [A B]. subst. split; reflexivity.
Qed.

(* what [assign_aux] emits for the name [n] when [k] equal names precede it *)
Definition render (n : str) (k : N) : str := if k =? 0 then n else n ++ dec k.

Lemma render_pos : forall n k, k <> 0 -> render n k = n ++ dec k.
Proof. intros n k H. unfold render. apply N.eqb_neq in H. rewrite H. reflexivity. Qed.

Lemma render_inj : forall B n m k0 k, inj_below B ->
  ends_with_digit n = false -> ends_with_digit m = false ->
  k0 < B -> k < B ->
  render n k0 = render m k -> n = m /\ k0 = k.
Proof.
  intros B n m k0 k HB Hn Hm B0 Bk H. unfold render in H.
  destruct (k0 =? 0) eqn:E0; destruct (k =? 0) eqn:E.
  - apply N.eqb_eq in E0, E. subst. split; reflexivity.
  - subst n. rewrite ends_with_digit_app_dec in Hn. discriminate.
  - subst m. rewrite ends_with_digit_app_dec in Hm. discriminate.
  - (* compare from the right end *)
    apply (f_equal (@rev N)) in H. rewrite !rev_app_distr in H.
    apply strip in H; [|apply forallb_rev, dec_digits|apply forallb_rev, dec_digits|exact Hn|exact Hm].
    destruct H as [A C]. apply (f_equal (@rev N)) in A, C. rewrite !rev_involutive in A, C.
    split; [exact C|exact (HB k0 k B0 Bk A)].
Qed.

Lemma count_cons : forall s a l,
  count s (a :: l) = if str_eqb s a then count s l + 1 else count s l.
Proof.
  intros. unfold count. simpl filter. destruct (str_eqb s a); [simpl length; lia|reflexivity].
Qed.

Lemma count_le : forall s l, count s l <= N.of_nat (length l).
Proof.
  intros s l. induction l as [|a l IH]; [reflexivity|].
  rewrite count_cons. cbn [length]. destruct (str_eqb s a); lia.
Qed.

Lemma count_repeat : forall n a, count n (repeat n a) = N.of_nat a.
Proof.
  intros n a. induction a as [|a IH]; [reflexivity|].
  cbn [repeat]. rewrite count_cons, str_eqb_refl, IH. lia.
Qed.

Lemma assign_aux_cons : forall seen n rest,
  assign_aux seen (n :: rest) = render n (count n seen) :: assign_aux (n :: seen) rest.
Proof. reflexivity. Qed.

Lemma in_assign_aux : forall rest seen x, In x (assign_aux seen rest) ->
  exists m k, In m rest /\ x = render m k /\ count m seen <= k /\
              k < N.of_nat (length seen + length rest).
Proof.
  induction rest as [|n rest IH]; intros seen x H; [contradiction|].
  rewrite assign_aux_cons in H. destruct H as [H|H].
  - exists n, (count n seen). split; [left; reflexivity|]. split; [symmetry; exact H|].
    pose proof (count_le n seen). simpl length. lia.
  - apply IH in H. destruct H as [m [k [Hin [Hx [Hc Hk]]]]].
    exists m, k. split; [right; assumption|]. split; [assumption|].
    rewrite count_cons in Hc. simpl length in *. destruct (str_eqb m n); lia.
Qed.

Lemma assign_aux_nodup : forall B names seen, inj_below B ->
  forallb (fun n => negb (ends_with_digit n)) names = true ->
  N.of_nat (length seen + length names) <= B ->
  NoDup (assign_aux seen names).
Proof.
  intros B names seen HB. revert seen.
  induction names as [|n rest IH]; intros seen Hok Hb.
  - constructor.
  - rewrite assign_aux_cons. simpl forallb in Hok. apply andb_prop in Hok.
    destruct Hok as [Hn Hrest]. apply negb_true_iff in Hn.
    simpl length in Hb.
    constructor.
    + intro Hin. apply in_assign_aux in Hin.
      destruct Hin as [m [k [Hm [Hx [Hc Hk]]]]].
      assert (Hmd : ends_with_digit m = false).
      { rewrite forallb_forall in Hrest. apply Hrest in Hm. apply negb_true_iff in Hm. exact Hm. }
      pose proof (count_le n seen) as Hle.
      simpl length in Hk.
      apply (render_inj B) in Hx; [| assumption | assumption | assumption | lia | lia].
      destruct Hx as [A C]. subst m k.
      rewrite count_cons, str_eqb_refl in Hc. lia.
    + apply IH; [assumption|]. simpl length. lia.
Qed.

Lemma assign_aux_repeat : forall n j a,
  assign_aux (repeat n a) (repeat n j) = map (fun i => render n (N.of_nat i)) (seq a j).
Proof.
  intros n. induction j as [|j IH]; intro a; [reflexivity|].
  cbn [repeat seq map]. rewrite assign_aux_cons, count_repeat. f_equal. apply (IH (S a)).
Qed.

Lemma assign_repeat : forall n m,
  assign (repeat n m) = map (fun i => render n (N.of_nat i)) (seq 0 m).
Proof. intros n m. exact (assign_aux_repeat n m 0). Qed.

Lemma assign_repeat_dup : forall n p q, p < q -> render n p = render n q ->
  ~ NoDup (assign (repeat n (S (N.to_nat q)))).
Proof.
  intros n p q Hpq E H. rewrite assign_repeat in H.
  assert (Epq : N.to_nat p = N.to_nat q); [|apply N2Nat.inj in Epq; lia].
  apply (proj1 (NoDup_nth _ (render n (N.of_nat 0))) H); rewrite ?map_length, ?seq_length; try lia.
  rewrite !(map_nth (fun i => render n (N.of_nat i))), !seq_nth by lia.
  cbn [Nat.add]. rewrite !N2Nat.id. exact E.
Qed.

(* The statement WITHOUT the length bound is false in this model: among 2*10^40+2 copies of `foo`
   (no name ends in a digit) the two that 10^40+1 and 2*10^40+1 copies precede both become
   foo<0…01> ([assign_repeat] gives [assign] of m copies for a variable m). *)
Lemma assign_nodup_unbounded_refuted :
  exists names, forallb (fun n => negb (ends_with_digit n)) names = true /\ ~ NoDup (assign names).
Proof.
  exists (repeat [102;111;111] (S (N.to_nat (2 * 10 ^ 40 + 1)))).
  split.
  - apply forallb_forall. intros x Hx. apply repeat_spec in Hx. subst x. reflexivity.
  - apply (assign_repeat_dup _ (1 * 10 ^ 40 + 1)); [reflexivity|].
    rewrite !render_pos by (rewrite N.add_1_r; apply N.neq_succ_0).
    apply f_equal. apply dec_not_injective; reflexivity.
Qed.

Lemma call_decl_from : forall kw, kw_ok kw = true -> smem [] kw = false ->
  forall args k, call_names_from kw k args = decl_names_from kw k args.
Proof.
  intros kw Hok He. induction args as [|a r IH]; intros k; [reflexivity|].
  destruct a as [n|]; cbn [call_names_from decl_names_from]; rewrite IH.
  - rewrite (mangle_idempotent kw n Hok He). reflexivity.
  - reflexivity.
Qed.

Lemma positional_from_all_unnamed : forall kw n k,
  call_names_positional kw (k + 1) (repeat None n) = decl_names_from kw k (repeat None n).
Proof.
  intros kw. induction n as [|n IH]; intros k; [reflexivity|].
  cbn [repeat call_names_positional decl_names_from]. rewrite IH. reflexivity.
Qed.
