From Coq Require Import NArith List Bool.
From BG Require Import C06.Model C06.Proofs.
Import ListNotations.
Open Scope N_scope.

(* every concrete composite with a known layout is accompanied by its size, its alignment and
   the offset of every named non-bit-field member whose offset is known (unless it is emitted as an
   opaque blob) *)
Theorem complete : forall c s a,
  concrete c = true -> c_layout c = Some (s, a) ->
  In (ASize s) (comp_assertions true c) /\ In (AAlign a) (comp_assertions true c) /\
  (c_opaque c = false ->
   forall f o, In f (c_fields c) -> f_named f = true -> f_bitfield f = false -> f_offset_bits f = Some o ->
               In (AOffset (f_id f) (o / 8)) (comp_assertions true c)).
Proof. exact Proofs.complete. Qed.
Print Assumptions complete.

(* nothing else is asserted: every assertion states one of those numbers *)
Theorem sound : forall c x,
  In x (comp_assertions true c) ->
  concrete c = true /\
  exists s a, c_layout c = Some (s, a) /\
    (x = ASize s \/ x = AAlign a \/
     exists f o, In f (c_fields c) /\ f_named f = true /\ f_bitfield f = false /\
                 f_offset_bits f = Some o /\ x = AOffset (f_id f) (o / 8)).
Proof. exact Proofs.sound. Qed.
Print Assumptions sound.

(* with layout tests disabled no assertion is emitted *)
Theorem off_means_none : forall c i, comp_assertions false c = [] /\ inst_assertions false i = [].
Proof. exact (fun c i => conj (Proofs.off_means_none c) (Proofs.inst_off i)). Qed.
Print Assumptions off_means_none.

(* every template instantiation that is not opaque, has concrete arguments and a known layout gets a
   size and an alignment assertion, and nothing else *)
Theorem instantiation_complete : forall i s a,
  i_opaque i = false -> i_uses_template_params i = false -> i_layout i = Some (s, a) ->
  inst_assertions true i = [ASize s; AAlign a].
Proof. intros i s a Ho Hu Hl. unfold inst_assertions. rewrite Ho, Hu, Hl. reflexivity. Qed.
Print Assumptions instantiation_complete.

Example complete_nonvacuous :
  comp_assertions true {| c_forward_decl := false; c_has_template_params := false; c_opaque := false; c_layout := Some (16, 8);
     c_fields := [ {| f_id := 0; f_named := true; f_bitfield := false; f_offset_bits := Some 0 |};
                   {| f_id := 1; f_named := true; f_bitfield := true; f_offset_bits := Some 32 |};
                   {| f_id := 2; f_named := false; f_bitfield := false; f_offset_bits := Some 64 |};
                   {| f_id := 3; f_named := true; f_bitfield := false; f_offset_bits := Some 64 |} ] |}
  = [ASize 16; AAlign 8; AOffset 0 0; AOffset 3 8].
Proof. reflexivity. Qed.
