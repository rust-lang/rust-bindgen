From Coq Require Import NArith List Bool.
From BG Require Import C06.Model.
Import ListNotations.
Open Scope N_scope.

Lemma in_field_assertions c x :
  In x (field_assertions c) <->
  exists f o, In f (c_fields c) /\ f_named f = true /\ f_bitfield f = false /\
              f_offset_bits f = Some o /\ x = AOffset (f_id f) (o / 8).
Proof.
  unfold field_assertions. split.
  - intros H. apply in_flat_map in H as [f [Hf Hx]].
    destruct (f_bitfield f) eqn:Hb; [destruct Hx|].
    destruct (f_named f) eqn:Hn; [|destruct Hx].
    destruct (f_offset_bits f) as [o|] eqn:Ho; [|destruct Hx].
    destruct Hx as [<-|[]]. exists f, o. repeat split; assumption.
  - intros [f [o [Hf [Hn [Hb [Ho ->]]]]]]. apply in_flat_map. exists f. rewrite Hb, Hn, Ho.
    split; [exact Hf|left; reflexivity].
Qed.

Lemma comp_assertions_on c :
  comp_assertions true c =
  if concrete c then
    match c_layout c with
    | Some (s, a) => ASize s :: AAlign a :: (if c_opaque c then [] else field_assertions c)
    | None => []
    end
  else [].
Proof.
  unfold comp_assertions, concrete.
  destruct (c_has_template_params c), (c_forward_decl c); reflexivity.
Qed.

Lemma complete c s a :
  concrete c = true -> c_layout c = Some (s, a) ->
  In (ASize s) (comp_assertions true c) /\ In (AAlign a) (comp_assertions true c) /\
  (c_opaque c = false ->
   forall f o, In f (c_fields c) -> f_named f = true -> f_bitfield f = false -> f_offset_bits f = Some o ->
               In (AOffset (f_id f) (o / 8)) (comp_assertions true c)).
Proof.
  intros Hc Hl. rewrite comp_assertions_on, Hc, Hl.
  split; [left; reflexivity|]. split; [right; left; reflexivity|].
  intros Ho f o Hin Hn Hb Hoff. rewrite Ho. right. right.
  apply in_field_assertions. exists f, o. repeat split; assumption.
Qed.

Lemma sound c x :
  In x (comp_assertions true c) ->
  concrete c = true /\
  exists s a, c_layout c = Some (s, a) /\
    (x = ASize s \/ x = AAlign a \/
     exists f o, In f (c_fields c) /\ f_named f = true /\ f_bitfield f = false /\
                 f_offset_bits f = Some o /\ x = AOffset (f_id f) (o / 8)).
Proof.
  rewrite comp_assertions_on. destruct (concrete c); [|intros []].
  destruct (c_layout c) as [[s a]|]; [|intros []].
  intros Hin. split; [reflexivity|]. exists s, a. split; [reflexivity|].
  destruct Hin as [<-|[<-|Hin]]; [left; reflexivity|right; left; reflexivity|].
  right. right. destruct (c_opaque c); [destruct Hin|].
  apply in_field_assertions, Hin.
Qed.

Lemma off_means_none c : comp_assertions false c = [].
Proof. unfold comp_assertions. destruct (c_has_template_params c); reflexivity. Qed.

Lemma inst_off i : inst_assertions false i = [].
Proof. reflexivity. Qed.
