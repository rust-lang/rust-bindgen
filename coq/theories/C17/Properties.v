From Coq Require Import NArith List Bool Sorted.
From BG Require Import C17.Model C17.Proofs.
Import ListNotations.
Open Scope N_scope.

(* the two-pass str::replace chain is the obvious one-pass escaping *)
Theorem escape_one_pass : forall s,
  escape s = flat_map (fun c => if c =? BSL then [BSL; BSL]
                                else if c =? SP then [BSL; SP] else [c]) s.
Proof. exact escape_flat. Qed.
Print Assumptions escape_one_pass.

Theorem escape_injective : forall a b, escape a = escape b -> a = b.
Proof. intros a b H. now rewrite <- (unesc_escape a), H, unesc_escape. Qed.
Print Assumptions escape_injective.

(* round trip through the cargo / ninja / rustc depfile dialect: for every target
   without ':' and every list of non-empty paths, whatever bytes they contain other
   than a newline (which no line-oriented reader can represent; the model reader does
   not need the hypothesis, real readers do) *)
Theorem roundtrip_dialect : forall m deps,
  no_colon m = true -> forallb nonempty deps = true -> forallb no_nl (m :: deps) = true ->
  parse_d (to_string m deps) = Some (m, deps).
Proof. exact Proofs.roundtrip_dialect. Qed.
Print Assumptions roundtrip_dialect.

(* round trip through GNU make needs more: safe characters, and the last path must not
   end with a space (make strips trailing blanks before unquoting) *)
Theorem roundtrip_gnumake_partial : forall deps,
  forallb nonempty deps = true -> forallb make_safe deps = true ->
  last_not_blank deps = true ->
  parse_make_deps (flat_map (fun d => SP :: escape d) deps) = Some deps.
Proof.
  intros deps Hne Hsafe Hlast. fold (line deps).
  rewrite parse_make_wm, remove_comment_line, strip_line by assumption.
  exact (wm_deps deps Hne Hsafe).
Qed.
Print Assumptions roundtrip_gnumake_partial.

(* '#', '$', a backslash not followed by a space, and a trailing space are not protected *)
Theorem roundtrip_gnumake_refuted :
  (exists d, nonempty d = true /\ no_nl d = true /\
             parse_make_deps (SP :: escape d) <> Some [d]) /\
  parse_make_deps (SP :: escape [97; HASH; 98]) = Some [[97]] /\
  parse_make_deps (SP :: escape [97; DOLLAR; 98]) = None /\
  parse_make_deps (SP :: escape [97; BSL; 98]) = Some [[97; BSL; BSL; 98]] /\
  parse_make_deps (SP :: escape [48; SP]) = Some [[48; BSL]].
Proof.
  assert (H : parse_make_deps (SP :: escape [97; HASH; 98]) = Some [[97]])
    by (vm_compute; reflexivity).
  split.
  - exists [97; HASH; 98]. rewrite H. repeat split. discriminate.
  - split; [exact H|]. repeat split; vm_compute; reflexivity.
Qed.
Print Assumptions roundtrip_gnumake_refuted.

(* the set of reported files: exactly the inputs and the included files ... *)
Theorem reported_exact : forall headers incl f,
  In f (reported headers incl) <-> In f headers \/ In f incl.
Proof. intros headers incl f. unfold reported. rewrite set_of_in. apply in_app_iff. Qed.
Print Assumptions reported_exact.

(* ... in strictly increasing byte order.  That no file is listed twice follows because [str_ltb]
   is irreflexive; that step is not stated *)
Theorem reported_sorted_nodup : forall headers incl,
  StronglySorted (fun a b => str_ltb a b = true) (reported headers incl).
Proof. intros headers incl. apply set_of_sorted. Qed.
Print Assumptions reported_sorted_nodup.

(* one cargo line per reported file, in order, and nothing else *)
Theorem cargo_lines_cover : forall files,
  length (cargo_lines files) = length files /\
  forall i f, nth_error files i = Some f -> nth_error (cargo_lines files) i = Some (RERUN ++ f).
Proof.
  intros files. unfold cargo_lines. split; [apply map_length|].
  intros i f H. exact (map_nth_error (fun f => RERUN ++ f) i files H).
Qed.
Print Assumptions cargo_lines_cover.
