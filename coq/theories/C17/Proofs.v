(* C17 — theory of the depfile codec: the escaping, the two readers of the line it produces, the
   sorted set of reported files. *)
From Coq Require Import NArith PeanoNat List Bool Sorted Lia.
From BG Require Import C17.Model.
Import ListNotations.
Open Scope N_scope.

Definition esc1 (c : N) : str :=
  if c =? BSL then [BSL; BSL] else if c =? SP then [BSL; SP] else [c].

Lemma escape_flat s : escape s = flat_map esc1 s.
Proof.
  unfold escape. induction s as [|c s IH]; [reflexivity|].
  cbn [replace_char flat_map]. unfold esc1 at 1.
  destruct (N.eqb_spec c BSL) as [->|Hb]; cbn [replace_char app]; [now rewrite IH|].
  destruct (N.eqb_spec c SP); cbn [app]; now rewrite IH.
Qed.

Lemma escape_cons c s : escape (c :: s) = esc1 c ++ escape s.
Proof. now rewrite !escape_flat. Qed.

Lemma escape_app a b : escape (a ++ b) = escape a ++ escape b.
Proof. rewrite !escape_flat. apply flat_map_app. Qed.

(* induction on a path together with its escaped form: the one case analysis on a byte *)
Lemma escape_ind (P : str -> str -> Prop) :
  P [] [] ->
  (forall s e, P s e -> P (BSL :: s) (BSL :: BSL :: e)) ->
  (forall s e, P s e -> P (SP :: s) (BSL :: SP :: e)) ->
  (forall c s e, c <> BSL -> c <> SP -> P s e -> P (c :: s) (c :: e)) ->
  forall s, P s (escape s).
Proof.
  intros H0 Hb Hs Hp s. rewrite escape_flat. induction s as [|c s IH]; [exact H0|].
  cbn [flat_map]. unfold esc1 at 1.
  destruct (N.eqb_spec c BSL) as [->|nb]; [exact (Hb _ _ IH)|].
  destruct (N.eqb_spec c SP) as [->|ns]; [exact (Hs _ _ IH)|exact (Hp _ _ _ nb ns IH)].
Qed.

Fixpoint unesc (s : str) : str :=
  match s with
  | [] => []
  | c :: t =>
      if c =? BSL then
        match t with
        | d :: t' => d :: unesc t'
        | [] => []
        end
      else c :: unesc t
  end.

Lemma unesc_escape s : unesc (escape s) = s.
Proof.
  apply (escape_ind (fun s e => unesc e = s)); [reflexivity|intros ? ? <-; reflexivity..|].
  intros c t e nb _ <-. cbn [unesc]. now destruct (N.eqb_spec c BSL).
Qed.

(* " escape(file)" for each dependency: what [to_string] puts after the colon *)
Definition line (deps : list str) : str := flat_map (fun d => SP :: escape d) deps.

Lemma flush_rev d acc : nonempty d = true -> flush (rev d) acc = d :: acc.
Proof.
  intros H. destruct (rev d) eqn:E.
  - apply (f_equal (@length _)) in E. rewrite rev_length in E. now destruct d.
  - cbn [flush]. now rewrite <- E, rev_involutive.
Qed.

(* what a reader [R] (current word reversed, words so far reversed) has to do on the end of
   the line, on a separator and on an escaped path in order to read a line back *)
Lemma reads_line {T} (R : str -> str -> list str -> T) (out : list str -> T) deps :
  (forall cur acc, R [] cur acc = out (rev (flush cur acc))) ->
  (forall t cur acc, R (SP :: t) cur acc = R t [] (flush cur acc)) ->
  (forall d, In d deps ->
     forall rest cur acc, R (escape d ++ rest) cur acc = R rest (rev d ++ cur) acc) ->
  forallb nonempty deps = true ->
  forall cur acc, R (line deps) cur acc = out (rev (flush cur acc) ++ deps).
Proof.
  intros Hnil Hsp. induction deps as [|d ds IH]; intros Hesc Hne cur acc.
  - cbn [line flat_map]. now rewrite Hnil, app_nil_r.
  - apply andb_prop in Hne as [Hd Hds]. cbn [line flat_map app]. fold (line ds).
    rewrite Hsp, Hesc, app_nil_r by now left.
    rewrite (IH (fun d' Hd' => Hesc d' (or_intror Hd')) Hds), flush_rev by exact Hd.
    cbn [rev]. now rewrite <- app_assoc.
Qed.

Lemma words_d_nil cur acc : words_d [] cur acc = rev (flush cur acc).
Proof. now destruct cur. Qed.

Lemma words_d_sp t cur acc : words_d (SP :: t) cur acc = words_d t [] (flush cur acc).
Proof. now destruct cur. Qed.

Lemma words_d_escape d : forall rest cur acc,
  words_d (escape d ++ rest) cur acc = words_d rest (rev d ++ cur) acc.
Proof.
  apply (escape_ind (fun d e => forall rest cur acc,
    words_d (e ++ rest) cur acc = words_d rest (rev d ++ cur) acc));
    [reflexivity|intros s e IH rest cur acc; cbn [rev]; rewrite <- app_assoc; apply IH..|].
  intros c s e nb ns IH rest cur acc. cbn [rev]. rewrite <- app_assoc, <- IH.
  cbn [app words_d]. now destruct (N.eqb_spec c BSL), (N.eqb_spec c SP).
Qed.

Lemma split_escape m : no_colon m = true -> forall rest cur,
  split_target_d (escape m ++ COLON :: rest) cur = Some (rev (rev m ++ cur), rest).
Proof.
  apply (escape_ind (fun m e => no_colon m = true -> forall rest cur,
    split_target_d (e ++ COLON :: rest) cur = Some (rev (rev m ++ cur), rest)));
    [reflexivity
    |intros s e IH [_ H]%andb_true_iff rest cur; cbn [rev]; rewrite <- app_assoc; apply (IH H)..|].
  intros c s e nb ns IH [nc%negb_true_iff H]%andb_true_iff rest cur.
  cbn [rev]. rewrite <- app_assoc, <- (IH H). cbn [app split_target_d]. rewrite nc.
  now destruct (N.eqb_spec c BSL).
Qed.

Lemma parse_to_string m deps :
  no_colon m = true -> forallb nonempty deps = true ->
  parse_d (to_string m deps) = Some (m, deps).
Proof.
  intros Hnc Hne. unfold parse_d, to_string. cbn [app]. fold (line deps).
  rewrite split_escape, app_nil_r, rev_involutive by exact Hnc.
  now rewrite (reads_line words_d id deps words_d_nil words_d_sp (fun d _ => words_d_escape d) Hne).
Qed.

Lemma roundtrip_dialect : forall m deps,
  no_colon m = true -> forallb nonempty deps = true -> forallb no_nl (m :: deps) = true ->
  parse_d (to_string m deps) = Some (m, deps).
Proof. intros m deps Hnc Hne _. now apply parse_to_string. Qed.

Definition plainc (c : N) : Prop :=
  c <> BSL /\ c <> SP /\ c <> TAB /\ c <> HASH /\ c <> DOLLAR.

(* what [make_safe] accepts: plain bytes, and backslash runs that end in a space *)
Inductive safe : str -> Prop :=
| safe_nil : safe []
| safe_plain c t : plainc c -> safe t -> safe (c :: t)
| safe_run k t : safe t -> safe (repeat BSL k ++ SP :: t).

Lemma make_safe_is_safe d : make_safe d = true -> safe d.
Proof.
  induction d as [|c t IH]; [constructor|]. cbn [make_safe].
  destruct (N.eqb_spec c HASH) as [|nh]; [discriminate|].
  destruct (N.eqb_spec c DOLLAR) as [|nd]; [discriminate|].
  destruct (N.eqb_spec c TAB) as [|nt]; [discriminate|].
  destruct (c =? NL); [discriminate|].
  cbn [orb]. destruct (N.eqb_spec c BSL) as [->|nb].
  - (* a backslash lengthens the run that follows it *)
    destruct t as [|d t]; [discriminate|]. intros [Hd H]%andb_true_iff.
    pose proof (IH H) as Sv. inversion Sv as [|c' t' (pb & ps & _) _ E|k t' S' E].
    + apply orb_true_iff in Hd as [E'|E']; apply N.eqb_eq in E'; congruence.
    + exact (safe_run (S k) t' S').
  - intros H. destruct (N.eq_dec c SP) as [->|ns]; [exact (safe_run 0 _ (IH H))|].
    constructor; [repeat split; assumption|exact (IH H)].
Qed.

Lemma safe_In d c : safe d -> In c d -> c <> HASH /\ c <> TAB.
Proof.
  induction 1 as [|x t (_ & _ & nt & nh & _) _ IH|k t _ IH].
  - intros [].
  - intros [<-|Hin]; auto.
  - rewrite in_app_iff. intros [->%repeat_spec|[<-|Hin]]; auto; split; discriminate.
Qed.

Lemma line_bytes deps c :
  In c (line deps) -> c = SP \/ c = BSL \/ exists d, In d deps /\ In c d.
Proof.
  unfold line. rewrite in_flat_map. intros (d & Hd & [<-|Hc]); [now left|].
  rewrite escape_flat, in_flat_map in Hc. destruct Hc as (x & Hx & Hc). unfold esc1 in Hc.
  destruct (x =? BSL); [|destruct (x =? SP)]; cbn [In] in Hc.
  1, 2: destruct Hc as [<-|[<-|[]]]; auto.
  destruct Hc as [<-|[]]. right. right. exists d. split; assumption.
Qed.

Lemma remove_comment_from_nohash : forall s nb, ~ In HASH s ->
  remove_comment_from s nb = repeat BSL nb ++ s.
Proof.
  induction s as [|c t IH]; intros nb H; cbn [remove_comment_from].
  - now rewrite app_nil_r.
  - rewrite !IH by (intros X; apply H; now right).
    destruct (N.eqb_spec c BSL) as [->|_]; [cbn [repeat]; now rewrite repeat_cons, <- app_assoc|].
    destruct (N.eqb_spec c HASH) as [->|_]; [destruct H; now left|reflexivity].
Qed.

Lemma remove_comment_line deps :
  forallb make_safe deps = true -> remove_comment (line deps) = line deps.
Proof.
  intros Hsafe. apply (remove_comment_from_nohash _ 0).
  intros [E|[E|(d & Hd & Hc)]]%line_bytes; try discriminate.
  eapply forallb_forall in Hsafe; [|exact Hd].
  now destruct (safe_In d HASH (make_safe_is_safe d Hsafe) Hc).
Qed.

Lemma strip_snoc s c : blank c = false -> strip_trailing_blanks (s ++ [c]) = s ++ [c].
Proof.
  intros H. induction s as [|x s IH]; cbn [app strip_trailing_blanks]; [now rewrite H|].
  rewrite IH. now destruct s.
Qed.

Lemma line_snoc ds t c : exists p, line (ds ++ [(t ++ [c] : str)]) = p ++ [c].
Proof.
  assert (exists q, esc1 c = q ++ [c]) as [q Eq].
  { unfold esc1. destruct (N.eqb_spec c BSL) as [->|_]; [now exists [BSL]|].
    destruct (N.eqb_spec c SP) as [->|_]; [now exists [BSL]|now exists []]. }
  exists (line ds ++ SP :: escape t ++ q). unfold line. rewrite flat_map_app. cbn [flat_map].
  rewrite escape_app, escape_cons, Eq, !app_nil_r.
  now rewrite <- !app_assoc, <- app_comm_cons, <- app_assoc.
Qed.

Lemma strip_line deps :
  forallb nonempty deps = true -> forallb make_safe deps = true -> last_not_blank deps = true ->
  strip_trailing_blanks (line deps) = line deps.
Proof.
  (* the line ends with the last byte [c] of the last path [t ++ [c]], which is not a blank *)
  intros Hne Hsafe Hlast. induction deps as [|d ds _] using rev_ind; [reflexivity|].
  rewrite forallb_app in Hne, Hsafe. cbn [forallb] in Hne, Hsafe.
  rewrite andb_true_r in Hne, Hsafe.
  apply andb_prop in Hne as [_ Hd]. apply andb_prop in Hsafe as [_ Sd].
  induction d as [|c t _] using rev_ind; [discriminate Hd|].
  unfold last_not_blank in Hlast. rewrite !last_last in Hlast. apply negb_true_iff in Hlast.
  destruct (line_snoc ds t c) as [p ->]. apply strip_snoc. unfold blank. rewrite Hlast.
  apply N.eqb_neq, (safe_In _ c (make_safe_is_safe _ Sd)), in_or_app. right. now left.
Qed.

Lemma count_bs_bsl t : count_bs (BSL :: t) = (S (fst (count_bs t)), snd (count_bs t)).
Proof. cbn [count_bs]. change (BSL =? BSL) with true. now destruct (count_bs t). Qed.

Lemma count_bs_length s : length s = (fst (count_bs s) + length (snd (count_bs s)))%nat.
Proof.
  induction s as [|c t IH]; [reflexivity|]. cbn [count_bs].
  destruct (c =? BSL); [|reflexivity]. destruct (count_bs t). cbn [fst snd length] in *.
  now rewrite IH.
Qed.

Lemma count_bs_repeat n r : count_bs (repeat BSL n ++ SP :: r) = (n, SP :: r).
Proof.
  induction n as [|n IH]; [reflexivity|]. cbn [repeat app]. now rewrite count_bs_bsl, IH.
Qed.

Lemma words_make_fuel_irrel : forall f1 f2 s cur acc,
  (length s <= f1)%nat -> (length s <= f2)%nat ->
  words_make f1 s cur acc = words_make f2 s cur acc.
Proof.
  induction f1 as [|f1 IH]; intros [|f2] [|c t] cur acc H1 H2; cbn [length] in *;
    try lia; try reflexivity.
  cbn [words_make]. destruct (N.eqb_spec c BSL) as [->|_].
  - rewrite count_bs_bsl. pose proof (count_bs_length t) as E.
    destruct (count_bs t) as [n [|d r]]; [reflexivity|]. cbn [fst snd length] in *.
    destruct (d =? SP); [destruct (Nat.even (S n))|]; apply IH; cbn [length]; lia.
  - destruct ((c =? SP) || (c =? TAB)); [apply IH; lia|].
    destruct (c =? DOLLAR); [|apply IH; lia].
    destruct t as [|d t]; [reflexivity|]. destruct (d =? DOLLAR); [|reflexivity].
    cbn [length] in *. apply IH; lia.
Qed.

Definition wm (s cur : str) (acc : list str) : option (list str) :=
  words_make (length s) s cur acc.

Lemma parse_make_wm rest :
  parse_make_deps rest = wm (strip_trailing_blanks (remove_comment rest)) [] [].
Proof. apply words_make_fuel_irrel; lia. Qed.

Lemma wm_sp t cur acc : wm (SP :: t) cur acc = wm t [] (flush cur acc).
Proof. reflexivity. Qed.

Lemma wm_plain c t cur acc :
  c <> BSL -> c <> SP -> c <> TAB -> c <> DOLLAR ->
  wm (c :: t) cur acc = wm t (c :: cur) acc.
Proof.
  intros nb%N.eqb_neq ns%N.eqb_neq nt%N.eqb_neq nd%N.eqb_neq.
  unfold wm. cbn [length words_make]. now rewrite nb, ns, nt, nd.
Qed.

Lemma wm_run k t cur acc :
  wm (repeat BSL (S (2 * k)) ++ SP :: t) cur acc = wm t (SP :: repeat BSL k ++ cur) acc.
Proof.
  unfold wm. rewrite app_length, repeat_length. cbn [length repeat app Nat.add words_make].
  change (BSL =? BSL) with true. cbv iota.
  change (BSL :: repeat BSL (2 * k) ++ SP :: t) with (repeat BSL (S (2 * k)) ++ SP :: t).
  rewrite count_bs_repeat. change (SP =? SP) with true. cbv iota.
  rewrite Nat.even_succ, Nat.odd_mul, Nat.div2_succ_double. cbn [Nat.odd negb andb].
  apply words_make_fuel_irrel; lia.
Qed.

Lemma escape_run k t :
  escape (repeat BSL k ++ SP :: t) = repeat BSL (S (2 * k)) ++ SP :: escape t.
Proof.
  induction k as [|k IH]; [reflexivity|]. cbn [repeat app]. rewrite escape_cons, IH.
  replace (2 * S k)%nat with (S (S (2 * k))) by lia. reflexivity.
Qed.

Lemma rev_repeat (a : N) n : rev (repeat a n) = repeat a n.
Proof.
  induction n as [|n IH]; [reflexivity|]. cbn [repeat rev]. rewrite IH. symmetry. apply repeat_cons.
Qed.

Lemma wm_escape d : safe d -> forall rest cur acc,
  wm (escape d ++ rest) cur acc = wm rest (rev d ++ cur) acc.
Proof.
  induction 1 as [|c t (nb & ns & nt & _ & nd) _ IH|k t _ IH]; intros rest cur acc.
  - reflexivity.
  - rewrite escape_cons. unfold esc1.
    destruct (N.eqb_spec c BSL), (N.eqb_spec c SP); try contradiction.
    cbn [app rev]. rewrite wm_plain, IH, <- app_assoc by assumption. reflexivity.
  - rewrite escape_run, <- app_assoc, <- app_comm_cons, wm_run, IH, rev_app_distr.
    cbn [rev]. now rewrite rev_repeat, <- !app_assoc.
Qed.

Lemma wm_deps deps :
  forallb nonempty deps = true -> forallb make_safe deps = true ->
  wm (line deps) [] [] = Some deps.
Proof.
  intros Hne Hsafe. apply (reads_line wm Some); [reflexivity|exact wm_sp| |exact Hne].
  intros d Hd. apply wm_escape, make_safe_is_safe, (proj1 (forallb_forall _ _) Hsafe), Hd.
Qed.

Lemma str_eqb_eq : forall a b, str_eqb a b = true -> a = b.
Proof.
  induction a as [|x a IH]; intros [|y b] H; try discriminate H; [reflexivity|].
  apply andb_true_iff in H as [->%N.eqb_eq H]. now rewrite (IH b H).
Qed.

Lemma str_ltb_cons x a y b :
  str_ltb (x :: a) (y :: b) = match x ?= y with Lt => true | Gt => false | Eq => str_ltb a b end.
Proof.
  cbn [str_ltb]. unfold N.ltb. rewrite (N.compare_antisym x y). now destruct (x ?= y).
Qed.

Lemma str_ltb_trans : forall a b c,
  str_ltb a b = true -> str_ltb b c = true -> str_ltb a c = true.
Proof.
  induction a as [|x a IH]; intros [|y b] [|z c]; try discriminate; try reflexivity.
  rewrite !str_ltb_cons.
  destruct (N.compare_spec x y) as [->|Hxy|]; try discriminate.
  - destruct (y ?= z); try discriminate; [apply IH|reflexivity].
  - destruct (N.compare_spec y z) as [->|Hyz|]; try discriminate; intros _ _.
    + now rewrite (proj2 (N.compare_lt_iff _ _) Hxy).
    + now rewrite (proj2 (N.compare_lt_iff _ _) (N.lt_trans _ _ _ Hxy Hyz)).
Qed.

Lemma str_ltb_total : forall a b,
  str_ltb a b = false -> str_eqb a b = false -> str_ltb b a = true.
Proof.
  induction a as [|x a IH]; intros [|y b]; try easy. rewrite !str_ltb_cons. cbn [str_eqb].
  rewrite (N.compare_antisym x y), N.eqb_compare. destruct (x ?= y); try easy. apply IH.
Qed.

Lemma set_insert_in f x l : In f (set_insert x l) <-> x = f \/ In f l.
Proof.
  induction l as [|y t IH]; cbn [set_insert]; [reflexivity|].
  destruct (str_ltb x y); [reflexivity|]. destruct (str_eqb x y) eqn:Heq.
  - apply str_eqb_eq in Heq as ->. split; [intros H; right; exact H|].
    intros [<-|H]; [left; reflexivity|exact H].
  - cbn [In]. rewrite IH. tauto.
Qed.

Lemma set_of_snoc l x : set_of (l ++ [x]) = set_insert x (set_of l).
Proof. unfold set_of. now rewrite fold_left_app. Qed.

Lemma set_of_in f l : In f (set_of l) <-> In f l.
Proof.
  induction l as [|x l IH] using rev_ind; [reflexivity|].
  rewrite set_of_snoc, set_insert_in, in_app_iff, IH. cbn [In]. tauto.
Qed.

Definition slt (a b : str) : Prop := str_ltb a b = true.

Lemma set_insert_sorted x l : StronglySorted slt l -> StronglySorted slt (set_insert x l).
Proof.
  induction 1 as [|y t Hs IH Hall]; cbn [set_insert]; [repeat constructor|].
  destruct (str_ltb x y) eqn:Hlt; [|destruct (str_eqb x y) eqn:Heq].
  - repeat constructor; trivial.
    eapply Forall_impl; [|exact Hall]. intros z. now apply str_ltb_trans.
  - now constructor.
  - constructor; [exact IH|]. rewrite Forall_forall in *.
    intros z [<-|Hz]%set_insert_in; [now apply str_ltb_total|auto].
Qed.

Lemma set_of_sorted l : StronglySorted slt (set_of l).
Proof.
  induction l as [|x l IH] using rev_ind; [constructor|].
  rewrite set_of_snoc. apply set_insert_sorted, IH.
Qed.

(* "a b", "\ " , "\\ x", " ", "c:\ d"-like paths: spaces and backslash runs *)
Definition nv_deps : list str :=
  [[97; 32; 98]; [92; 32]; [92; 92; 32; 120]; [32]; [32; 92; 32; 32];
   [99; 58; 92; 32; 100]; [97; 92; 92; 92; 32]; [92; 92; 32; 32; 122]].

Example roundtrip_gnumake_nonvacuous :
  forallb nonempty nv_deps = true /\ forallb make_safe nv_deps = true /\
  last_not_blank nv_deps = true /\
  parse_make_deps (flat_map (fun d => SP :: escape d) nv_deps) = Some nv_deps.
Proof. vm_compute. repeat split. Qed.

(* the dialect reader takes anything, e.g. trailing backslashes, '#', '$', ':' in deps *)
Definition nv_deps_d : list str :=
  [[92]; [32]; [92; 32]; [32; 92]; [92; 92; 32; 97]; [35]; [36; 120]; [97; 58; 98];
   [97; 92]; [92; 98]].

Example roundtrip_dialect_nonvacuous :
  no_colon [111; 92; 32; 92] = true /\ forallb nonempty nv_deps_d = true /\
  forallb no_nl ([111; 92; 32; 92] :: nv_deps_d) = true /\
  parse_d (to_string [111; 92; 32; 92] nv_deps_d) = Some ([111; 92; 32; 92], nv_deps_d).
Proof. vm_compute. repeat split. Qed.

Example make_safe_rejects_nonvacuous :
  make_safe [92] = false /\ make_safe [97; 92] = false /\ make_safe [92; 98] = false /\
  make_safe [92; 92] = false /\ make_safe [97; 35] = false /\ make_safe [36] = false.
Proof. vm_compute. repeat split. Qed.

Example reported_nonvacuous :
  reported [[98; 32]; [97]] [[98]; [97]; [92]] = [[92]; [97]; [98]; [98; 32]].
Proof. vm_compute. reflexivity. Qed.

Example escape_nonvacuous :
  escape [92; 32; 97; 32; 92] = [92; 92; 92; 32; 97; 92; 32; 92; 92].
Proof. vm_compute. reflexivity. Qed.

(* what GNU make 4.3 was observed to read from these lines *)
Example make_trailing_blank_observed :       (* " 0\ " *)
  parse_make_deps [32; 48; 92; 32] = Some [[48; 92]].
Proof. vm_compute. reflexivity. Qed.

Example make_comment_then_strip_observed :   (* " \ _\ \\ ##aa aZbab" *)
  parse_make_deps [32; 92; 32; 95; 92; 32; 92; 92; 32; 35; 35; 97; 97; 32; 97; 90; 98; 97; 98]
  = Some [[32; 95; 32; 92; 92]].
Proof. vm_compute. reflexivity. Qed.

Example make_hash_observed :                 (* " a#b", " a\#b", " a\\#b", " a\\\#b" *)
  parse_make_deps [32; 97; 35; 98] = Some [[97]] /\
  parse_make_deps [32; 97; 92; 35; 98] = Some [[97; 35; 98]] /\
  parse_make_deps [32; 97; 92; 92; 35; 98] = Some [[97; 92]] /\
  parse_make_deps [32; 97; 92; 92; 92; 35; 98] = Some [[97; 92; 35; 98]].
Proof. vm_compute. repeat split. Qed.

Example make_dollar_observed :               (* " a$b", " a$$b" *)
  parse_make_deps [32; 97; 36; 98] = None /\
  parse_make_deps [32; 97; 36; 36; 98] = Some [[97; 36; 98]].
Proof. vm_compute. repeat split. Qed.

(* last_not_blank is needed: a make_safe list whose last path ends in a space fails,
   while a space at the end of an earlier path is harmless *)
Example last_not_blank_needed_nonvacuous :
  make_safe [48; 32] = true /\ last_not_blank [[48; 32]] = false /\
  parse_make_deps (flat_map (fun d => SP :: escape d) [[48; 32]]) = Some [[48; 92]] /\
  last_not_blank [[48; 32]; [49]] = true /\
  parse_make_deps (flat_map (fun d => SP :: escape d) [[48; 32]; [49]]) = Some [[48; 32]; [49]].
Proof. vm_compute. repeat split. Qed.
