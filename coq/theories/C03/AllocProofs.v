(* C03 — allocation units: the fold keeps one invariant, [Inv], as long as the fields come at the
   offsets C reports; the theorems of AllocProperties.v are read off it. *)
From Coq Require Import NArith List Bool Lia.
From BG Require Import C03.Alloc.
Import ListNotations.
Open Scope N_scope.

Lemma align_to_exact : forall x a, x mod a = 0 -> align_to x a = x.
Proof.
  intros x a Hm. unfold align_to.
  destruct (N.eqb_spec a 0) as [|Ha]; [reflexivity|].
  apply N.div_exact in Hm; [|exact Ha].
  remember (x / a) as q eqn:Hq. clear Hq.
  assert (Hd : (x + a - 1) / a = q).
  { symmetry. apply N.div_unique with (r := a - 1); lia. }
  rewrite Hd. lia.
Qed.

Lemma unit_bytes_covers : forall s, u_bits s <= 8 * unit_bytes s.
Proof.
  intros s. unfold unit_bytes, align_to.
  change (8 =? 0) with false. cbv iota.
  rewrite N.div_mul by discriminate.
  pose proof (N.div_mod (u_bits s + 8 - 1) 8) as H.
  pose proof (N.mod_lt (u_bits s + 8 - 1) 8) as L.
  lia.
Qed.

Lemma placed_reported : forall packed s b o,
  boff b = Some o -> c_placed packed b o = true -> placed packed s b = o.
Proof.
  intros packed s b o Ho Hc. unfold placed. rewrite Ho.
  unfold c_placed in Hc.
  destruct packed; [reflexivity|].
  destruct (o =? 0); [reflexivity|].
  cbn [negb andb orb] in *.
  destruct (bw b =? 0); cbn [orb].
  - apply align_to_exact, N.eqb_eq, Hc.
  - rewrite (proj2 (N.ltb_ge _ _)) by apply N.leb_le, Hc. reflexivity.
Qed.

Lemma Forall2_weaken {A B} (R1 R2 : A -> B -> Prop) :
  (forall a b, R1 a b -> R2 a b) -> forall l1 l2, Forall2 R1 l1 l2 -> Forall2 R2 l1 l2.
Proof. intros H l1 l2 F. induction F; constructor; auto. Qed.

Lemma Forall2_Forall_r {A B} (R : A -> B -> Prop) (P : B -> Prop) :
  (forall a b, R a b -> P b) -> forall l1 l2, Forall2 R l1 l2 -> Forall P l2.
Proof. intros H l1 l2 F. induction F; constructor; eauto. Qed.

Lemma known_cons : forall a bs,
  known (a :: bs) =
  match boff a, known bs with
  | Some o, Some l => Some ((o, bw a) :: l)
  | _, _ => None
  end.
Proof. reflexivity. Qed.

(* the last field consumed; (0, 0) before the first *)
Definition lst (offs : list (N * N)) : N * N := last offs (0, 0).

(* a field reported at (offset, width) [ow] is recorded as [f]: with its own width, at its C
   distance from the unit's start (a separator may lie before the start), and inside the unit *)
Definition recorded (s : ustate) (ow f : N * N) : Prop :=
  snd f = snd ow /\ (snd ow = 0 \/ u_start s + fst f = fst ow) /\ fst f + snd f <= u_bits s.

(* the unit ends where the last field consumed ends *)
Definition Inv (s : ustate) (offs : list (N * N)) : Prop :=
  Forall2 (recorded s) offs (u_fields s) /\
  u_start s <= fst (lst offs) /\
  u_start s + u_bits s = fst (lst offs) + snd (lst offs).

Lemma inv_step : forall packed s b o offs,
  Inv s offs -> boff b = Some o -> placed packed s b = o ->
  fst (lst offs) <= o -> fst (lst offs) + snd (lst offs) <= o + bw b ->
  Inv (step packed s b) (offs ++ [(o, bw b)]).
Proof.
  intros packed s b o offs (HF & Hst & Hend) Ho Hp Hlo Hle.
  unfold Inv, recorded, step, lst in *. rewrite last_last. cbn [u_start u_bits u_fields fst snd].
  rewrite Ho, Hp.
  set (start := if u_bits s =? 0 then o else u_start s).
  assert (Hs : start <= o)
    by (unfold start; destruct (u_bits s =? 0); [apply N.le_refl|exact (N.le_trans _ _ _ Hst Hlo)]).
  split; [|split; lia].
  apply Forall2_app.
  - eapply Forall2_weaken; [|exact HF].
    intros ow f (Rw & Req & Hc). split; [exact Rw|].
    unfold start in *. destruct (N.eqb_spec (u_bits s) 0) as [E|E].
    + (* the unit is still empty, every field so far has width 0: it (re)starts at this field *)
      split; [left|]; lia.
    + (* the unit already holds a field of positive width: its start is fixed *)
      split; [exact Req|lia].
  - constructor; [|constructor]. cbn [fst snd].
    split; [reflexivity|]. split; [right; lia|apply N.le_refl].
Qed.

(* the fold started in any state that satisfies the invariant: [seen] are the fields consumed before
   [bs], and the ends go on increasing from the last of them *)
Lemma fold_inv packed : forall bs s seen offs,
  Inv s seen -> known bs = Some offs ->
  forallb (fun b => match boff b with Some o => c_placed packed b o | None => false end) bs = true ->
  ends_monotone (lst seen :: offs) = true ->
  Inv (fold_left (step packed) bs s) (seen ++ offs).
Proof.
  induction bs as [|b bs IH]; intros s seen offs HI Hk Hc Hm.
  - injection Hk as <-. rewrite app_nil_r. exact HI.
  - rewrite known_cons in Hk.
    destruct (boff b) as [o|] eqn:Ho; [|discriminate].
    destruct (known bs) as [offs'|]; [|discriminate].
    injection Hk as <-.
    cbn [forallb] in Hc. rewrite Ho in Hc. apply andb_prop in Hc. destruct Hc as [Hcb Hc].
    destruct (lst seen) as [o0 w0] eqn:E. cbn [ends_monotone] in Hm.
    apply andb_prop in Hm. destruct Hm as [Hm0 Hm].
    apply andb_prop in Hm0. destruct Hm0 as [Hlo Hle].
    change (seen ++ (o, bw b) :: offs') with (seen ++ [(o, bw b)] ++ offs'). rewrite app_assoc.
    apply IH; [|reflexivity|exact Hc|unfold lst; rewrite last_last; exact Hm].
    apply inv_step; [exact HI|exact Ho|apply placed_reported; assumption|..];
      rewrite E; apply N.leb_le; assumption.
Qed.

Lemma run_inv : forall packed bs offs,
  known bs = Some offs ->
  forallb (fun b => match boff b with Some o => c_placed packed b o | None => false end) bs = true ->
  ends_monotone offs = true ->
  Inv (run packed bs) offs.
Proof.
  intros packed bs offs Hk Hc Hm. apply (fold_inv packed bs init [] offs); [|exact Hk|exact Hc|].
  - split; [constructor|]. split; [apply N.le_refl|reflexivity].
  - (* (0, 0) ends before every field *)
    destruct offs as [|[o w] l]; [reflexivity|].
    change ((0 <=? o) && (0 + 0 <=? o + w) && ends_monotone ((o, w) :: l) = true).
    rewrite Hm, !(proj2 (N.leb_le _ _)) by apply N.le_0_l. reflexivity.
Qed.

Lemma fields_keep_their_c_offsets : forall packed bs offs,
  known bs = Some offs -> bs <> [] ->
  Forall (fun b => 0 < bal b) bs ->
  forallb (fun b => match boff b with Some o => c_placed packed b o | None => false end) bs = true ->
  ends_monotone offs = true ->
  let s := run packed bs in
  Forall2 (fun ow f => snd ow = 0 \/ u_start s + fst f = fst ow) offs (u_fields s).
Proof.
  intros packed bs offs Hk _ _ Hc Hm. cbv zeta.
  eapply Forall2_weaken; [|apply (run_inv packed bs offs Hk Hc Hm)].
  intros ow f (_ & H & _). exact H.
Qed.

Lemma unit_covers_every_field : forall packed bs offs,
  known bs = Some offs -> bs <> [] ->
  Forall (fun b => 0 < bal b) bs ->
  forallb (fun b => match boff b with Some o => c_placed packed b o | None => false end) bs = true ->
  ends_monotone offs = true ->
  let s := run packed bs in
  Forall (fun f => fst f + snd f <= u_bits s) (u_fields s) /\ u_bits s <= 8 * unit_bytes s.
Proof.
  intros packed bs offs Hk _ _ Hc Hm. cbv zeta.
  split; [|apply unit_bytes_covers].
  eapply Forall2_Forall_r; [|apply (run_inv packed bs offs Hk Hc Hm)].
  intros ow f (_ & _ & H). exact H.
Qed.

Lemma union_unit_too_small_refuted : exists bs offs,
  known bs = Some offs /\ Forall (fun ow => fst ow = 0) offs /\
  ~ Forall (fun f => fst f + snd f <= u_bits (run false bs)) (u_fields (run false bs)).
Proof.
  exists [ {| bw := 20; bal := 4; bsz := 4; boff := Some 0; bnamed := true |};
           {| bw := 3;  bal := 4; bsz := 4; boff := Some 0; bnamed := true |} ].
  exists [(0, 20); (0, 3)].
  split; [reflexivity|]. split; [repeat constructor|].
  intros H. vm_compute in H. inversion H as [|x l Hx _]. apply Hx. reflexivity.
Qed.

Definition bf (w al sz o : N) : rawbf :=
  {| bw := w; bal := al; bsz := sz; boff := Some o; bnamed := negb (w =? 0) |}.

(* struct { char c; unsigned char a:3; char :0; int b:5; } on x86-64: the run starts at bit 8 *)
Definition ex_run : list rawbf := [bf 3 1 1 8; bf 0 1 1 16; bf 5 4 4 16].

Definition hyps_hold (packed : bool) (bs : list rawbf) : bool :=
  match known bs with
  | Some offs =>
      negb (match bs with [] => true | _ => false end)
      && forallb (fun b => 0 <? bal b) bs
      && forallb (fun b => match boff b with Some o => c_placed packed b o | None => false end) bs
      && ends_monotone offs
  | None => false
  end.

Example ex_run_hyps : hyps_hold false ex_run = true.
Proof. vm_compute. reflexivity. Qed.

Example ex_run_state :
  run false ex_run =
  {| u_start := 8; u_bits := 13; u_fields := [(0, 3); (8, 0); (8, 5)]; u_maxal := 4 |}
  /\ unit_bytes (run false ex_run) = 2.
Proof. vm_compute. split; reflexivity. Qed.

Example ex_run_offsets :
  Forall2 (fun ow f => snd ow = 0 \/ 8 + fst f = fst ow)
          [(8, 3); (16, 0); (16, 5)] [(0, 3); (8, 0); (8, 5)].
Proof.
  pose proof (fields_keep_their_c_offsets false ex_run [(8, 3); (16, 0); (16, 5)]) as H.
  cbv zeta in H. rewrite (proj1 ex_run_state) in H. cbn [u_start u_fields] in H.
  apply H.
  - reflexivity.
  - discriminate.
  - unfold ex_run, bf. repeat constructor.
  - vm_compute. reflexivity.
  - vm_compute. reflexivity.
Qed.

(* leading separator, later start; a 33-bit field in a 64-bit type; 13 bytes *)
Definition ex_run2 : list rawbf :=
  [bf 0 4 4 32; bf 7 1 1 32; bf 1 1 1 39; bf 16 2 2 48; bf 33 8 8 64].

Example ex_run2_ok :
  hyps_hold false ex_run2 = true
  /\ run false ex_run2 =
     {| u_start := 32; u_bits := 65;
        u_fields := [(0, 0); (0, 7); (7, 1); (16, 16); (32, 33)]; u_maxal := 8 |}
  /\ unit_bytes (run false ex_run2) = 9.
Proof. vm_compute. repeat split; reflexivity. Qed.

(* packed: arbitrary offsets, nothing is moved *)
Definition ex_run3 : list rawbf := [bf 7 4 4 3; bf 30 4 4 10; bf 0 4 4 41; bf 9 2 2 41].

Example ex_run3_ok :
  hyps_hold true ex_run3 = true
  /\ run true ex_run3 =
     {| u_start := 3; u_bits := 47; u_fields := [(0, 7); (7, 30); (38, 0); (38, 9)]; u_maxal := 4 |}
  /\ unit_bytes (run true ex_run3) = 6
  /\ hyps_hold false ex_run3 = false.   (* the same offsets are not a legal unpacked layout *)
Proof. vm_compute. repeat split; reflexivity. Qed.

(* the union run of the refutation: the hypotheses that fail are exactly [ends_monotone] *)
Example ex_union :
  let bs := [bf 20 4 4 0; bf 3 4 4 0] in
  u_bits (run false bs) = 3 /\ u_fields (run false bs) = [(0, 20); (0, 3)]
  /\ ends_monotone [(0, 20); (0, 3)] = false.
Proof. vm_compute. repeat split; reflexivity. Qed.
