(* C03 — theory of the bit-field model.  Everything is done at the level of
   N.testbit: each primitive of Model.v gets a lemma describing its bits, and
   the theorems follow by N.bits_inj (values) or bits_ext (storages).
   A bit index is always split as 8 * j + t with t < 8 (byte j, bit t); the
   order of the bits inside a byte, the reversal of a word and the position of
   a field bit inside the value are the one involution [vpos be w] of [0, w). *)
From Coq Require Import NArith ZArith List Bool Lia.
From BG Require Import C03.Model.
Import ListNotations.
Open Scope N_scope.

Lemma ltb_true a b : a < b -> (a <? b) = true.    Proof. apply N.ltb_lt. Qed.
Lemma ltb_false a b : b <= a -> (a <? b) = false. Proof. apply N.ltb_ge. Qed.
Lemma leb_true a b : a <= b -> (a <=? b) = true.  Proof. apply N.leb_le. Qed.
Lemma leb_false a b : b < a -> (a <=? b) = false. Proof. apply N.leb_gt. Qed.
Lemma eqb_false a b : a <> b -> (a =? b) = false.  Proof. apply N.eqb_neq. Qed.

Lemma ltb_congr a b c d : (a < b <-> c < d) -> (a <? b) = (c <? d).
Proof.
  intros H. apply eq_true_iff_eq.
  split; intros E; apply N.ltb_lt; apply N.ltb_lt in E; apply H, E.
Qed.

Lemma ltb_add_l a b c : (a + b <? a + c) = (b <? c).
Proof. apply ltb_congr. symmetry. apply N.add_lt_mono_l. Qed.

Lemma leb_add_l a b c : (a + b <=? a + c) = (b <=? c).
Proof. rewrite !N.leb_antisym, ltb_add_l. reflexivity. Qed.

Lemma testbit_wrapW W x n :
  N.testbit (wrapW W x) n = (n <? W) && N.testbit x n.
Proof.
  unfold wrapW. destruct (N.ltb_spec n W) as [Hlt|Hge].
  - apply N.mod_pow2_bits_low; exact Hlt.
  - apply N.mod_pow2_bits_high; exact Hge.
Qed.

Lemma testbit_wrapW_high W x n : W <= n -> N.testbit (wrapW W x) n = false.
Proof. intros H. rewrite testbit_wrapW, ltb_false by exact H. reflexivity. Qed.

Lemma testbit_shlW W x s n : s < W ->
  N.testbit (shlW W x s) n = (n <? W) && ((s <=? n) && N.testbit x (n - s)).
Proof.
  intros Hs. unfold shlW. rewrite testbit_wrapW, (N.mod_small s W Hs). f_equal.
  destruct (N.leb_spec s n) as [Hle|Hlt].
  - apply N.shiftl_spec_high'; exact Hle.
  - apply N.shiftl_spec_low; exact Hlt.
Qed.

Lemma testbit_shrW W x s n : s < W ->
  N.testbit (shrW W x s) n = N.testbit x (n + s).
Proof.
  intros Hs. unfold shrW. rewrite (N.mod_small s W Hs). apply N.shiftr_spec'.
Qed.

Lemma testbit_ones w n : N.testbit (2 ^ w - 1) n = (n <? w).
Proof.
  rewrite <- N.pred_sub, <- N.ones_equiv.
  destruct (N.ltb_spec n w) as [Hlt|Hge].
  - apply N.ones_spec_low; exact Hlt.
  - apply N.ones_spec_high; exact Hge.
Qed.

Lemma testbit_cond_bit (c : bool) p n :
  N.testbit (if c then N.shiftl 1 p else 0) n = c && (p =? n).
Proof.
  destruct c.
  - rewrite N.shiftl_1_l. apply N.pow2_bits_eqb.
  - apply N.bits_0.
Qed.

Lemma lt_pow2_bits x k :
  x < 2 ^ k <-> (forall n, k <= n -> N.testbit x n = false).
Proof.
  split.
  - intros Hx n Hn. rewrite <- (N.mod_small x (2 ^ k) Hx).
    apply N.mod_pow2_bits_high; exact Hn.
  - intros Hb. assert (Heq : x = x mod 2 ^ k).
    { apply N.bits_inj; intros n.
      destruct (N.lt_ge_cases n k) as [Hlt|Hge].
      - rewrite N.mod_pow2_bits_low by exact Hlt. reflexivity.
      - rewrite N.mod_pow2_bits_high by exact Hge. apply Hb; exact Hge. }
    rewrite Heq. apply N.mod_lt. apply N.pow_nonzero. discriminate.
Qed.

Lemma byte_bits_high b n : b < 256 -> 8 <= n -> N.testbit b n = false.
Proof. exact (fun Hb => proj1 (lt_pow2_bits b 8) Hb n). Qed.

Lemma vpos_lt be w j : j < w -> vpos be w j < w.
Proof. unfold vpos. destruct be; lia. Qed.

Lemma vpos_invol be w j : j < w -> vpos be w (vpos be w j) = j.
Proof. unfold vpos. destruct be; lia. Qed.

Lemma vpos_shift d w n : 0 < w -> vpos true (d + w) (d + n) = vpos true w n.
Proof.
  intros Hw. unfold vpos.
  rewrite N.sub_add_distr, <- N.add_sub_assoc, (N.add_comm d), N.add_sub by lia. reflexivity.
Qed.

(* A value assembled one bit at a time: step k sets bit [p k] when [c k] holds.
   Both rev_bits_aux and get_spec_aux are such loops, with p = vpos. *)
Lemma testbit_bit_loop (F : nat -> N) (c : N -> bool) (p : N -> N) w :
  F O = 0 ->
  (forall k, F (S k) =
             N.lor (F k) (if c (N.of_nat k) then N.shiftl 1 (p (N.of_nat k)) else 0)) ->
  (forall j, j < w -> p j < w) -> (forall j, j < w -> p (p j) = j) ->
  forall n, N.testbit (F (N.to_nat w)) n = (n <? w) && c (p n).
Proof.
  intros F0 FS Hlt Hinv n.
  assert (Hk : forall k, N.of_nat k <= w ->
            N.testbit (F k) n = (n <? w) && ((p n <? N.of_nat k) && c (p n))).
  { induction k as [|k IH]; intros Hk.
    - rewrite F0, N.bits_0, (ltb_false (p n) (N.of_nat 0)) by apply N.le_0_l.
      symmetry. apply andb_false_r.
    - assert (Hj : N.of_nat k < w) by lia.
      pose proof (Hlt _ Hj) as Hpj. pose proof (Hinv _ Hj) as Hpp.
      rewrite FS, N.lor_spec, testbit_cond_bit, IH by lia.
      destruct (N.eqb_spec (p (N.of_nat k)) n) as [<-|Hne].
      + rewrite Hpp, (ltb_true _ w Hpj), (ltb_false (N.of_nat k) (N.of_nat k)),
          (ltb_true (N.of_nat k)) by lia.
        apply andb_true_r.
      + rewrite andb_false_r, orb_false_r.
        destruct (N.ltb_spec n w) as [Hn|Hn]; [|reflexivity].
        assert (Hv : p n <> N.of_nat k).
        { intros Hc. apply Hne. rewrite <- Hc. apply Hinv, Hn. }
        do 2 f_equal. apply ltb_congr. lia. }
  rewrite Hk, N2Nat.id by lia.
  destruct (N.ltb_spec n w) as [Hn|Hn]; [|reflexivity].
  rewrite ltb_true by apply Hlt, Hn. reflexivity.
Qed.

Lemma testbit_revW W x n :
  N.testbit (revW W x) n = (n <? W) && N.testbit x (vpos true W n).
Proof.
  apply (testbit_bit_loop (fun k => rev_bits_aux k W x) (N.testbit x) (vpos true W) W).
  - reflexivity.
  - intros k. apply N.lor_comm.
  - apply vpos_lt.
  - apply vpos_invol.
Qed.

Lemma revW_lt W x : revW W x < 2 ^ W.
Proof.
  apply lt_pow2_bits. intros n Hn. rewrite testbit_revW, ltb_false by exact Hn.
  reflexivity.
Qed.

(* the byte as [gather] and [scatter] see it: reversed on big-endian targets *)
Definition lb (be : bool) (b : N) : N := if be then rev8 b else b.

Lemma testbit_lb be b t : t < 8 -> N.testbit (lb be b) t = N.testbit b (vpos be 8 t).
Proof.
  intros Ht. destruct be; [|reflexivity].
  unfold lb, rev8. rewrite testbit_revW, ltb_true by exact Ht. reflexivity.
Qed.

Lemma lb_lt be b : b < 256 -> lb be b < 256.
Proof. intros Hb. destruct be; [exact (revW_lt 8 b)|exact Hb]. Qed.

Lemma by_byte_bit (P : N -> Prop) :
  (forall j t, t < 8 -> P (8 * j + t)) -> forall n, P n.
Proof.
  intros H n. rewrite (N.div_mod n 8) by discriminate.
  apply H, N.mod_lt. discriminate.
Qed.

Lemma div8 j t : t < 8 -> (8 * j + t) / 8 = j.
Proof.
  intros Ht. rewrite N.mul_comm, N.div_add_l, (N.div_small t 8 Ht) by discriminate.
  apply N.add_0_r.
Qed.

Lemma mod8 j t : t < 8 -> (8 * j + t) mod 8 = t.
Proof.
  intros Ht. rewrite N.add_comm, N.mul_comm, N.mod_add by discriminate.
  apply N.mod_small, Ht.
Qed.

Lemma div8_lt x n : x < 8 * n -> x / 8 < n.
Proof. apply N.div_lt_upper_bound. discriminate. Qed.

Lemma ceil8_le x n : (x + 7) / 8 <= n <-> x <= 8 * n.
Proof. zify. Z.to_euclidean_division_equations. lia. Qed.

Lemma bit_at be st j t : t < 8 ->
  bit be st (8 * j + t) = N.testbit (byte_at st j) (vpos be 8 t).
Proof. intros Ht. unfold bit. rewrite (div8 j t Ht), (mod8 j t Ht). reflexivity. Qed.

Lemma byte_at_lt st i : wf_storage st = true -> byte_at st i < 256.
Proof.
  intros Hwf. unfold byte_at.
  destruct (Nat.lt_ge_cases (N.to_nat i) (length st)) as [Hlt|Hge].
  - unfold wf_storage in Hwf. rewrite forallb_forall in Hwf.
    apply N.ltb_lt. apply Hwf. apply nth_In; exact Hlt.
  - rewrite nth_overflow by exact Hge. reflexivity.
Qed.

Lemma length_upd : forall st i b, length (upd st i b) = length st.
Proof.
  induction st as [|h t IH]; intros i b; [reflexivity|].
  destruct i as [|i]; cbn [upd length]; [reflexivity|].
  rewrite IH; reflexivity.
Qed.

Lemma nth_upd : forall st i b j,
  nth j (upd st i b) 0 =
  if (Nat.eqb j i && Nat.ltb i (length st))%bool then b else nth j st 0.
Proof.
  induction st as [|h t IH]; intros i b j.
  - cbn [upd length]. rewrite andb_false_r. reflexivity.
  - destruct i as [|i]; destruct j as [|j]; cbn [upd nth length]; try reflexivity.
    rewrite IH. reflexivity.
Qed.

Lemma byte_at_upd st i b j :
  byte_at (upd st (N.to_nat i) b) j =
  if (j =? i) && (i <? N.of_nat (length st)) then b else byte_at st j.
Proof.
  unfold byte_at. rewrite nth_upd.
  assert (H1 : Nat.eqb (N.to_nat j) (N.to_nat i) = (j =? i)).
  { destruct (N.eqb_spec j i) as [He|Hne].
    - subst; apply Nat.eqb_refl.
    - apply Nat.eqb_neq. lia. }
  assert (H2 : Nat.ltb (N.to_nat i) (length st) = (i <? N.of_nat (length st))).
  { destruct (N.ltb_spec i (N.of_nat (length st))) as [H|H].
    - apply Nat.ltb_lt. lia.
    - apply Nat.ltb_ge. lia. }
  rewrite H1, H2. reflexivity.
Qed.

Lemma wf_upd : forall st i b,
  wf_storage st = true -> b < 256 -> wf_storage (upd st i b) = true.
Proof.
  unfold wf_storage.
  induction st as [|h t IH]; intros i b Hwf Hb; [reflexivity|].
  cbn [forallb] in Hwf. apply andb_true_iff in Hwf. destruct Hwf as [Hh Ht].
  destruct i as [|i]; cbn [upd forallb]; apply andb_true_iff; split.
  - apply N.ltb_lt; exact Hb.
  - exact Ht.
  - exact Hh.
  - apply IH; assumption.
Qed.

Lemma bits_ext : forall be st st',
  wf_storage st = true -> wf_storage st' = true -> length st = length st' ->
  (forall n, bit be st n = bit be st' n) -> st = st'.
Proof.
  intros be st st' Hwf Hwf' Hlen Hbits.
  apply (nth_ext _ _ 0 0 Hlen). intros i _.
  rewrite <- (Nat2N.id i). change (byte_at st (N.of_nat i) = byte_at st' (N.of_nat i)).
  apply N.bits_inj. intros t.
  destruct (N.lt_ge_cases t 8) as [Ht|Ht].
  - (* bit t of byte i is bit 8 * i + vpos be 8 t of the storage *)
    rewrite <- (vpos_invol be 8 t Ht), <- !bit_at by (apply vpos_lt; exact Ht).
    apply Hbits.
  - rewrite !byte_bits_high by (assumption || apply byte_at_lt; assumption).
    reflexivity.
Qed.

Lemma testbit_get_spec be st off w n :
  N.testbit (get_spec be st off w) n =
  (n <? w) && bit be st (off + vpos be w n).
Proof.
  exact (testbit_bit_loop (fun k => get_spec_aux k be st off w)
                         (fun j => bit be st (off + j)) (vpos be w) w
                         eq_refl (fun _ => eq_refl) (vpos_lt be w) (vpos_invol be w) n).
Qed.

Lemma testbit_put (v : bool) b p q :
  N.testbit (if v then N.lor b (N.shiftl 1 p) else N.ldiff b (N.shiftl 1 p)) q =
  if p =? q then v else N.testbit b q.
Proof.
  destruct v; rewrite ?N.lor_spec, ?N.ldiff_spec, N.shiftl_1_l, N.pow2_bits_eqb;
    destruct (p =? q); auto using orb_true_r, orb_false_r, andb_false_r, andb_true_r.
Qed.

Lemma bit_set_bit be st m v n :
  bit be (set_bit be st m v) n =
  if (n =? m) && (m / 8 <? N.of_nat (length st)) then v else bit be st n.
Proof.
  revert n. apply by_byte_bit. intros j t Ht.
  pattern m. apply by_byte_bit. intros i s Hs.
  unfold set_bit. rewrite (div8 i s Hs), (mod8 i s Hs), !bit_at, byte_at_upd by exact Ht.
  change (if be then 7 - s else s) with (vpos be 8 s).
  destruct (i <? N.of_nat (length st)); [|rewrite !andb_false_r; reflexivity].
  rewrite !andb_true_r.
  destruct (N.eqb_spec j i) as [->|Hji].
  - rewrite testbit_put.
    destruct (N.eqb_spec t s) as [->|Hts].
    + rewrite !N.eqb_refl. reflexivity.
    + (* vpos be 8 is injective on [0, 8) *)
      rewrite (eqb_false (8 * i + t)) by lia.
      rewrite (eqb_false (vpos be 8 s)); [reflexivity|].
      intros E. apply Hts.
      rewrite <- (vpos_invol be 8 t Ht), <- E. apply vpos_invol, Hs.
  - rewrite (eqb_false (8 * j + t)) by lia. reflexivity.
Qed.

Lemma set_bit_wf be st m v :
  wf_storage st = true -> wf_storage (set_bit be st m v) = true.
Proof.
  intros Hwf. unfold set_bit. apply wf_upd; [exact Hwf|].
  apply (lt_pow2_bits _ 8). intros n Hn.
  set (p := if be then 7 - m mod 8 else m mod 8).
  assert (Hp : p < 8) by (apply (vpos_lt be 8 (m mod 8)), N.mod_lt; discriminate).
  rewrite testbit_put, (eqb_false p n) by lia.
  apply byte_bits_high; [apply byte_at_lt; exact Hwf|exact Hn].
Qed.

Lemma length_set_spec_aux be st off w val : forall k,
  length (set_spec_aux k be st off w val) = length st.
Proof.
  induction k as [|k IH]; cbn [set_spec_aux]; [reflexivity|].
  unfold set_bit. rewrite length_upd. exact IH.
Qed.

Lemma set_spec_length : forall be st off w val,
  length (set_spec be st off w val) = length st.
Proof. intros. apply length_set_spec_aux. Qed.

Lemma set_spec_wf : forall be st off w val,
  wf_storage st = true -> wf_storage (set_spec be st off w val) = true.
Proof.
  intros be st off w val Hwf. unfold set_spec.
  induction (N.to_nat w) as [|k IH]; [exact Hwf|apply set_bit_wf, IH].
Qed.

Lemma bit_set_spec_aux be st off w val : forall k n,
  bit be (set_spec_aux k be st off w val) n =
  if (off <=? n) && ((n <? off + N.of_nat k) && (n / 8 <? N.of_nat (length st)))
  then N.testbit val (vpos be w (n - off)) else bit be st n.
Proof.
  induction k as [|k IH]; intros n.
  - cbn [set_spec_aux]. destruct (N.leb_spec off n); [|reflexivity].
    rewrite ltb_false by lia. reflexivity.
  - cbn [set_spec_aux]. rewrite bit_set_bit, length_set_spec_aux, IH.
    destruct (N.eqb_spec n (off + N.of_nat k)) as [->|Hne].
    + rewrite leb_true, (ltb_true _ (off + N.of_nat (S k))), (ltb_false _ (off + N.of_nat k))
        by lia.
      rewrite (N.add_comm off), N.add_sub.
      destruct (_ <? N.of_nat (length st)); reflexivity.
    + rewrite (ltb_congr n (off + N.of_nat (S k)) n (off + N.of_nat k)) by lia. reflexivity.
Qed.

Lemma bit_set_spec be st off w val n :
  bit be (set_spec be st off w val) n =
  if (off <=? n) && ((n <? off + w) && (n / 8 <? N.of_nat (length st)))
  then N.testbit val (vpos be w (n - off)) else bit be st n.
Proof. unfold set_spec. rewrite bit_set_spec_aux, N2Nat.id. reflexivity. Qed.

Lemma bit_set_spec_in be st off w val j :
  j < w -> (off + j) / 8 < N.of_nat (length st) ->
  bit be (set_spec be st off w val) (off + j) = N.testbit val (vpos be w j).
Proof.
  intros Hj Hin. rewrite bit_set_spec, leb_true, !ltb_true by lia.
  rewrite N.add_comm, N.add_sub. reflexivity.
Qed.

Lemma set_spec_frame : forall be st off w val n,
  (n < off \/ off + w <= n) ->
  bit be (set_spec be st off w val) n = bit be st n.
Proof.
  intros be st off w val n [Hn|Hn]; rewrite bit_set_spec.
  - rewrite leb_false by exact Hn. reflexivity.
  - rewrite (ltb_false n), andb_false_r by exact Hn. reflexivity.
Qed.

Lemma get_spec_set_spec be st off w val :
  (off + w + 7) / 8 <= N.of_nat (length st) ->
  get_spec be (set_spec be st off w val) off w = val mod 2 ^ w.
Proof.
  intros Hlen. apply N.bits_inj. intros n.
  rewrite testbit_get_spec. fold (wrapW w val). rewrite testbit_wrapW.
  destruct (N.ltb_spec n w) as [Hn|Hn]; [|reflexivity].
  pose proof (vpos_lt be w n Hn) as Hv. apply ceil8_le in Hlen.
  rewrite bit_set_spec_in, vpos_invol by (assumption || apply div8_lt; lia). reflexivity.
Qed.

Lemma get_spec_frame be st off w val off' w' :
  off' + w' <= off \/ off + w <= off' ->
  get_spec be (set_spec be st off w val) off' w' = get_spec be st off' w'.
Proof.
  intros Hd. apply N.bits_inj. intros n. rewrite !testbit_get_spec.
  destruct (N.ltb_spec n w') as [Hn|Hn]; [|reflexivity].
  pose proof (vpos_lt be w' n Hn) as Hv.
  rewrite set_spec_frame by lia. reflexivity.
Qed.

Lemma set_spec_commute be st off w val off' w' val' :
  wf_storage st = true -> off' + w' <= off \/ off + w <= off' ->
  set_spec be (set_spec be st off w val) off' w' val' =
  set_spec be (set_spec be st off' w' val') off w val.
Proof.
  intros Hwf Hd. apply (bits_ext be).
  - apply set_spec_wf, set_spec_wf, Hwf.
  - apply set_spec_wf, set_spec_wf, Hwf.
  - rewrite !set_spec_length. reflexivity.
  - intros n. rewrite !bit_set_spec, !set_spec_length.
    (* a bit inside one field lies outside the other *)
    destruct (N.leb_spec off n) as [H1|H1]; [|reflexivity].
    destruct (N.ltb_spec n (off + w)) as [H2|H2]; [|reflexivity].
    destruct Hd as [Hd|Hd].
    + rewrite (ltb_false n (off' + w')), andb_false_r by lia. reflexivity.
    + rewrite (leb_false off' n) by lia. reflexivity.
Qed.

Lemma off_split off : off = 8 * start_byte off + bit_shift off.
Proof. apply N.div_mod. discriminate. Qed.

Lemma bytes_needed_covers off w : w + bit_shift off <= 8 * bytes_needed off w.
Proof. apply ceil8_le, N.le_refl. Qed.

(* the loops stay inside a W-bit word: the only thing needed of W is that it
   is a whole number of bytes *)
Lemma window_fits W off w :
  W mod 8 = 0 -> w + bit_shift off <= W -> 8 * bytes_needed off w <= W.
Proof.
  intros HW Hx. apply N.div_exact in HW; [|discriminate].
  rewrite HW. apply N.mul_le_mono_l, ceil8_le. rewrite <- HW. exact Hx.
Qed.

(* Both directions mask the value to w bits and, on big-endian targets, reverse
   the field inside the W-bit word. *)
Definition flip_field (W : N) (be : bool) (w v : N) : N :=
  let v := if w <? W then N.land v (2 ^ w - 1) else v in
  if be then shrW W (revW W v) (W - w) else v.

Lemma get_core_eq W be st off w :
  get_core W be st off w =
  flip_field W be w
    (shrW W (gather (N.to_nat (bytes_needed off w)) W be st (start_byte off)) (bit_shift off)).
Proof. reflexivity. Qed.

Lemma testbit_flip_field W be w v n :
  0 < w -> w <= W -> (forall j, W <= j -> N.testbit v j = false) ->
  N.testbit (flip_field W be w v) n = (n <? w) && N.testbit v (vpos be w n).
Proof.
  intros Hw0 HwW Hv. unfold flip_field. cbv zeta.
  assert (Hm : forall j,
    N.testbit (if w <? W then N.land v (2 ^ w - 1) else v) j = (j <? w) && N.testbit v j).
  { intros j. destruct (N.ltb_spec w W) as [H|H].
    - rewrite N.land_spec, testbit_ones. apply andb_comm.
    - destruct (N.ltb_spec j w) as [Hj|Hj]; [reflexivity|apply Hv; lia]. }
  destruct be; [|apply Hm].
  (* bit n of the shifted word is bit n + (W - w) of the reversed one, which is bit
     W - 1 - (n + (W - w)) = w - 1 - n of the masked value *)
  destruct (N.le_exists_sub w W HwW) as (d & -> & _).
  rewrite N.add_sub, testbit_shrW, testbit_revW, Hm, (N.add_comm n d), ltb_add_l, vpos_shift
    by lia.
  destruct (N.ltb_spec n w) as [Hn|Hn]; [|reflexivity].
  rewrite ltb_true by apply vpos_lt, Hn. reflexivity.
Qed.

Lemma testbit_shl_byte W x k j t : x < 256 -> t < 8 -> 8 * (k + 1) <= W ->
  N.testbit (shlW W x (k * 8)) (8 * j + t) = (j =? k) && N.testbit x t.
Proof.
  intros Hx Ht Hk. rewrite testbit_shlW by lia.
  destruct (N.lt_trichotomy j k) as [H|[->|H]].
  - rewrite leb_false, andb_false_r, (eqb_false j k) by lia. reflexivity.
  - rewrite ltb_true, leb_true, N.eqb_refl, (N.mul_comm k 8), N.add_comm, N.add_sub by lia.
    reflexivity.
  - rewrite (byte_bits_high x), !andb_false_r, (eqb_false j k) by lia. reflexivity.
Qed.

Lemma testbit_gather_byte W be st start : wf_storage st = true ->
  forall k, 8 * N.of_nat k <= W -> forall j t, t < 8 ->
  N.testbit (gather k W be st start) (8 * j + t) =
  (j <? N.of_nat k) && N.testbit (byte_at st (start + j)) (vpos be 8 t).
Proof.
  intros Hwf. induction k as [|k IH]; intros Hk j t Ht.
  - cbn [gather]. rewrite N.bits_0, (ltb_false j) by apply N.le_0_l. reflexivity.
  - cbn [gather]. fold (lb be (byte_at st (start + N.of_nat k))).
    rewrite N.lor_spec, IH, testbit_shl_byte by (lia || apply lb_lt, byte_at_lt, Hwf).
    destruct (N.eqb_spec j (N.of_nat k)) as [->|Hne].
    + rewrite N.ltb_irrefl, testbit_lb, ltb_true by lia. reflexivity.
    + rewrite orb_false_r. f_equal. apply ltb_congr. lia.
Qed.

Lemma testbit_gather W be st start k : wf_storage st = true -> 8 * N.of_nat k <= W ->
  forall n, N.testbit (gather k W be st start) n =
            (n <? 8 * N.of_nat k) && bit be st (8 * start + n).
Proof.
  intros Hwf Hk. apply by_byte_bit. intros j t Ht.
  rewrite testbit_gather_byte, N.add_assoc, <- N.mul_add_distr_l, bit_at by assumption.
  f_equal. apply ltb_congr. lia.
Qed.

Lemma get_core_correct W be st off w :
  wf_storage st = true -> W mod 8 = 0 -> 0 < w -> w + bit_shift off <= W ->
  get_core W be st off w = get_spec be st off w.
Proof.
  intros Hwf HW Hw0 Hg. apply N.bits_inj. intros n.
  pose proof (window_fits W off w HW Hg) as HkW.
  pose proof (bytes_needed_covers off w) as Hk.
  assert (Hacc : forall m,
    N.testbit (shrW W (gather (N.to_nat (bytes_needed off w)) W be st (start_byte off))
                    (bit_shift off)) m =
    (m + bit_shift off <? 8 * bytes_needed off w) && bit be st (off + m)).
  { intros m. rewrite testbit_shrW, testbit_gather, N2Nat.id
      by (rewrite ?N2Nat.id; assumption || lia).
    pose proof (off_split off). do 2 f_equal. lia. }
  rewrite get_core_eq, testbit_flip_field, testbit_get_spec, Hacc; try lia.
  - destruct (N.ltb_spec n w) as [Hn|Hn]; [|reflexivity].
    pose proof (vpos_lt be w n Hn). rewrite ltb_true by lia. reflexivity.
  - intros j Hj. rewrite Hacc, ltb_false by lia. reflexivity.
Qed.

(* Neither side looks at the length of the storage: a missing byte reads as 0. *)
Lemma get_meets_spec be st off w :
  wf_storage st = true -> w + bit_shift off <= 64 -> get be st off w = get_spec be st off w.
Proof.
  intros Hwf Hg. unfold get. destruct (N.eqb_spec w 0) as [->|Hw]; [reflexivity|].
  apply get_core_correct; [exact Hwf|reflexivity|lia|exact Hg].
Qed.

Lemma get_const_meets_spec Wsz be st off w :
  Wsz mod 8 = 0 -> wf_storage st = true -> w + bit_shift off <= 64 ->
  get_const Wsz be st off w = get_spec be st off w.
Proof.
  intros HW Hwf Hg. unfold get_const.
  destruct (N.eqb_spec w 0) as [->|Hw]; [reflexivity|].
  destruct (N.leb_spec (w + bit_shift off) Wsz) as [Hfit|_];
    apply get_core_correct; try assumption; reflexivity || lia.
Qed.

Lemma testbit_mod256 x t : N.testbit (x mod 256) t = (t <? 8) && N.testbit x t.
Proof. exact (testbit_wrapW 8 x t). Qed.

Lemma mod256_lt x : x mod 256 < 256.
Proof. apply N.mod_lt. discriminate. Qed.

Lemma testbit_255_sub bm t : bm < 256 ->
  N.testbit (255 - bm) t = (t <? 8) && negb (N.testbit bm t).
Proof.
  intros Hbm.
  assert (H255 : forall n, N.testbit 255 n = (n <? 8)) by exact (testbit_ones 8).
  rewrite N.sub_nocarry_ldiff.
  - rewrite N.ldiff_spec, H255. reflexivity.
  - apply N.bits_inj. intros n. rewrite N.ldiff_spec, H255, N.bits_0.
    destruct (N.ltb_spec n 8) as [H|H].
    + apply andb_false_r.
    + rewrite (byte_bits_high bm n Hbm H). reflexivity.
Qed.

(* the byte written by one iteration of the set loop *)
Definition new_byte (be : bool) (b bv bm : N) : N :=
  lb be (N.lor (N.land (lb be b) (255 - bm)) (N.land bv bm)).

Lemma scatter_S k W be st start v mask :
  scatter (S k) W be st start v mask =
  let st' := scatter k W be st start v mask in
  let i := N.of_nat k in
  upd st' (N.to_nat (start + i))
      (new_byte be (byte_at st' (start + i))
                (shrW W v (i * 8) mod 256) (shrW W mask (i * 8) mod 256)).
Proof. unfold new_byte, lb. destruct be; reflexivity. Qed.

Lemma new_byte_bit be b bv bm t : bm < 256 -> t < 8 ->
  N.testbit (new_byte be b bv bm) (vpos be 8 t) =
  if N.testbit bm t then N.testbit bv t else N.testbit b (vpos be 8 t).
Proof.
  intros Hbm Ht. unfold new_byte.
  rewrite testbit_lb, vpos_invol by (apply vpos_lt, Ht || exact Ht).
  rewrite N.lor_spec, !N.land_spec, testbit_255_sub, testbit_lb, (ltb_true t 8 Ht) by assumption.
  destruct (N.testbit bm t), (N.testbit bv t), (N.testbit b (vpos be 8 t)); reflexivity.
Qed.

Lemma new_byte_lt be b bv bm : b < 256 -> bm < 256 -> new_byte be b bv bm < 256.
Proof.
  intros Hb Hbm. apply lb_lt, (lt_pow2_bits _ 8). intros n Hn.
  rewrite N.lor_spec, !N.land_spec.
  rewrite (byte_bits_high _ n (lb_lt be b Hb) Hn), (byte_bits_high bm n Hbm Hn).
  apply andb_false_r.
Qed.

Lemma length_scatter W be st start v mask : forall k,
  length (scatter k W be st start v mask) = length st.
Proof.
  induction k as [|k IH]; [reflexivity|].
  rewrite scatter_S. cbv zeta. rewrite length_upd. exact IH.
Qed.

Lemma scatter_wf W be st start v mask : wf_storage st = true -> forall k,
  wf_storage (scatter k W be st start v mask) = true.
Proof.
  intros Hwf. induction k as [|k IH]; [exact Hwf|].
  rewrite scatter_S. cbv zeta. apply wf_upd; [exact IH|].
  apply new_byte_lt; [apply byte_at_lt; exact IH|apply mod256_lt].
Qed.

Section Scatter.
Variables (W : N) (be : bool) (st : list N) (start v mask : N).

Lemma byte_at_scatter_out : forall k i, i < start \/ start + N.of_nat k <= i ->
  byte_at (scatter k W be st start v mask) i = byte_at st i.
Proof.
  induction k as [|k IH]; intros i Hi; [reflexivity|].
  rewrite scatter_S. cbv zeta.
  rewrite byte_at_upd, (eqb_false i) by lia.
  apply IH. lia.
Qed.

Lemma byte_at_scatter_in : forall k j, j < N.of_nat k ->
  byte_at (scatter k W be st start v mask) (start + j) =
  if start + j <? N.of_nat (length st)
  then new_byte be (byte_at st (start + j))
                (shrW W v (j * 8) mod 256) (shrW W mask (j * 8) mod 256)
  else byte_at st (start + j).
Proof.
  induction k as [|k IH]; intros j Hj; [lia|].
  rewrite scatter_S. cbv zeta. rewrite byte_at_upd, length_scatter.
  destruct (N.eqb_spec (start + j) (start + N.of_nat k)) as [E|E].
  - assert (j = N.of_nat k) as -> by lia.
    rewrite byte_at_scatter_out by lia.
    destruct (_ <? _); reflexivity.
  - apply IH. lia.
Qed.

Lemma bit_scatter_in k j t : j < N.of_nat k -> 8 * N.of_nat k <= W -> t < 8 ->
  bit be (scatter k W be st start v mask) (8 * (start + j) + t) =
  if (start + j <? N.of_nat (length st)) && N.testbit mask (8 * j + t)
  then N.testbit v (8 * j + t) else bit be st (8 * (start + j) + t).
Proof.
  intros Hj Hk Ht. rewrite !bit_at, byte_at_scatter_in by assumption.
  destruct (_ <? _); [|reflexivity].
  rewrite new_byte_bit, !testbit_mod256, !testbit_shrW, (ltb_true t 8 Ht), (N.add_comm t)
    by (apply mod256_lt || lia).
  rewrite (N.mul_comm j 8). reflexivity.
Qed.
End Scatter.

Lemma scatter_set_spec W be st q r kb w v mask val off :
  wf_storage st = true -> off = 8 * q + r -> 8 * kb <= W -> w + r <= 8 * kb ->
  (forall m, N.testbit mask m = (r <=? m) && (m <? w + r)) ->
  (forall m, r <= m -> m < w + r -> N.testbit v m = N.testbit val (vpos be w (m - r))) ->
  scatter (N.to_nat kb) W be st q v mask = set_spec be st off w val.
Proof.
  intros Hwf -> HkW Hk Hmask Hv.
  apply (bits_ext be).
  - apply scatter_wf, Hwf.
  - apply set_spec_wf, Hwf.
  - rewrite length_scatter, set_spec_length. reflexivity.
  - apply by_byte_bit. intros i t Ht.
    rewrite bit_set_spec, (div8 i t Ht).
    destruct (N.lt_ge_cases i q) as [Hlo|Hlo]; [|destruct (N.lt_ge_cases i (q + kb)) as [Hhi|Hhi]].
    + (* a byte before the window *)
      rewrite !bit_at, byte_at_scatter_out, leb_false by (assumption || lia). reflexivity.
    + (* byte q + j of the window *)
      destruct (N.le_exists_sub q i Hlo) as (j & -> & _). rewrite (N.add_comm j q) in *.
      apply N.add_lt_mono_l in Hhi.
      rewrite bit_scatter_in by (rewrite ?N2Nat.id; assumption).
      destruct (q + j <? N.of_nat (length st)); [|rewrite !andb_false_r; reflexivity].
      rewrite !andb_true_r, N.mul_add_distr_l, <- !N.add_assoc, leb_add_l, ltb_add_l.
      rewrite Hmask, (N.add_comm r w).
      destruct (N.leb_spec r (8 * j + t)) as [H1|H1]; [|reflexivity].
      destruct (N.ltb_spec (8 * j + t) (w + r)) as [H2|H2]; [|reflexivity].
      cbn [andb]. rewrite N.sub_add_distr, (N.add_comm (8 * q)), N.add_sub.
      apply Hv; assumption.
    + (* a byte after the window *)
      rewrite !bit_at, byte_at_scatter_out, (ltb_false (8 * i + t)), andb_false_r
        by (assumption || rewrite ?N2Nat.id; lia).
      reflexivity.
Qed.

(* the mask handed to the set loop *)
Definition set_mask (W w sh : N) : N :=
  if W <=? w + sh then shlW W (onesW W) sh else shlW W (2 ^ w - 1) sh.

Lemma set_core_eq W be st off w val :
  set_core W be st off w val =
  scatter (N.to_nat (bytes_needed off w)) W be st (start_byte off)
          (shlW W (flip_field W be w (wrapW W val)) (bit_shift off))
          (set_mask W w (bit_shift off)).
Proof. reflexivity. Qed.

Lemma testbit_shl_ones W x sh m : sh < W ->
  N.testbit (shlW W (2 ^ x - 1) sh) m = (sh <=? m) && (m <? N.min W (x + sh)).
Proof.
  intros Hs. rewrite testbit_shlW, testbit_ones by exact Hs.
  destruct (N.leb_spec sh m) as [H1|H1]; [|apply andb_false_r].
  destruct (N.le_exists_sub sh m H1) as (e & -> & _). rewrite N.add_sub.
  destruct (N.ltb_spec (e + sh) W), (N.ltb_spec e x); symmetry;
    (apply ltb_true || apply ltb_false); lia.
Qed.

Lemma testbit_set_mask W w sh m : w + sh <= W -> 0 < w ->
  N.testbit (set_mask W w sh) m = (sh <=? m) && (m <? w + sh).
Proof.
  intros Hg Hw0. unfold set_mask, onesW.
  destruct (N.leb_spec W (w + sh)); rewrite testbit_shl_ones by lia; do 2 f_equal; lia.
Qed.

Lemma testbit_set_val W be w val r m :
  w <= 64 -> w + r <= W -> r <= m -> m < w + r ->
  N.testbit (shlW W (flip_field W be w (wrapW W (wrapW 64 val))) r) m =
  N.testbit val (vpos be w (m - r)).
Proof.
  intros Hw64 Hg H1 H2.
  assert (Hv : vpos be w (m - r) < w) by (apply vpos_lt; lia).
  rewrite testbit_shlW, testbit_flip_field, !testbit_wrapW
    by (lia || apply testbit_wrapW_high).
  rewrite leb_true, !ltb_true by lia. reflexivity.
Qed.

Lemma set_core_correct W be st off w val :
  wf_storage st = true -> W mod 8 = 0 -> 0 < w -> w <= 64 ->
  w + bit_shift off <= W ->
  set_core W be st off w (wrapW 64 val) = set_spec be st off w val.
Proof.
  intros Hwf HW Hw0 Hw64 Hg. rewrite set_core_eq.
  apply scatter_set_spec with (r := bit_shift off).
  - exact Hwf.
  - apply off_split.
  - apply window_fits; assumption.
  - apply bytes_needed_covers.
  - intros m. apply testbit_set_mask; assumption.
  - intros m. apply testbit_set_val; assumption.
Qed.

(* Nor does the store depend on the length: a byte the storage lacks is not
   written by either side. *)
Lemma set_meets_spec be st off w val :
  wf_storage st = true -> w + bit_shift off <= 64 ->
  set be st off w val = set_spec be st off w val.
Proof.
  intros Hwf Hg. unfold set. destruct (N.eqb_spec w 0) as [->|Hw]; [reflexivity|].
  apply set_core_correct; [exact Hwf|reflexivity|lia..|exact Hg].
Qed.

Lemma set_const_meets_spec Wsz be st off w val :
  Wsz mod 8 = 0 -> wf_storage st = true -> w + bit_shift off <= 64 ->
  set_const Wsz be st off w val = set_spec be st off w val.
Proof.
  intros HW Hwf Hg. unfold set_const.
  destruct (N.eqb_spec w 0) as [->|Hw]; [reflexivity|].
  destruct (N.leb_spec (w + bit_shift off) Wsz) as [Hfit|_];
    apply set_core_correct; try assumption; reflexivity || lia.
Qed.

Lemma get_correct : forall be st off w,
  wf_storage st = true ->
  asserts_ok (N.of_nat (length st)) off w = true -> w + off mod 8 <= 64 ->
  get be st off w = get_spec be st off w.
Proof. intros be st off w Hwf _. apply get_meets_spec, Hwf. Qed.

Lemma set_correct : forall be st off w val,
  wf_storage st = true ->
  asserts_ok (N.of_nat (length st)) off w = true -> w + off mod 8 <= 64 ->
  set be st off w val = set_spec be st off w val.
Proof. intros be st off w val Hwf _. apply set_meets_spec, Hwf. Qed.

Lemma asserts_ok_inside len off w : asserts_ok len off w = true -> (off + w + 7) / 8 <= len.
Proof.
  unfold asserts_ok. intros H. apply andb_true_iff in H. apply N.leb_le, H.
Qed.

Lemma get_set : forall be st off w val,
  wf_storage st = true ->
  asserts_ok (N.of_nat (length st)) off w = true -> w + off mod 8 <= 64 ->
  get be (set be st off w val) off w = val mod 2 ^ w.
Proof.
  intros be st off w val Hwf Hfits Hg.
  rewrite set_meets_spec, get_meets_spec by auto using set_spec_wf.
  apply get_spec_set_spec, asserts_ok_inside, Hfits.
Qed.

Lemma get_set_other be st off w val off' w' :
  wf_storage st = true -> w + bit_shift off <= 64 -> w' + bit_shift off' <= 64 ->
  off' + w' <= off \/ off + w <= off' ->
  get be (set be st off w val) off' w' = get be st off' w'.
Proof.
  intros Hwf Hg Hg' Hd.
  rewrite set_meets_spec, !get_meets_spec by auto using set_spec_wf.
  apply get_spec_frame, Hd.
Qed.

Lemma set_commute : forall be st off w val off' w' val',
  wf_storage st = true ->
  asserts_ok (N.of_nat (length st)) off w = true -> w + off mod 8 <= 64 ->
  asserts_ok (N.of_nat (length st)) off' w' = true -> w' + off' mod 8 <= 64 ->
  (off' + w' <= off \/ off + w <= off') ->
  set be (set be st off w val) off' w' val' =
  set be (set be st off' w' val') off w val.
Proof.
  intros be st off w val off' w' val' Hwf _ Hg _ Hg' Hd.
  rewrite !(set_meets_spec be st), !set_meets_spec by auto using set_spec_wf.
  apply set_spec_commute; assumption.
Qed.

Example get_correct_nonvacuous :
  let st := [165; 60; 255; 18] in
  wf_storage st = true /\
  asserts_ok (N.of_nat (length st)) 3 17 = true /\
  17 + 3 mod 8 <= 64 /\
  get false st 3 17 = 124820 /\ get_spec false st 3 17 = 124820 /\
  get true st 3 17 = 21455 /\ get_spec true st 3 17 = 21455.
Proof. vm_compute. repeat split; try reflexivity; discriminate. Qed.

Example set_correct_nonvacuous :
  let st := [165; 60; 255; 18] in
  wf_storage st = true /\
  asserts_ok (N.of_nat (length st)) 3 17 = true /\
  17 + 3 mod 8 <= 64 /\
  set false st 3 17 43690 = set_spec false st 3 17 43690 /\
  set false st 3 17 43690 <> st /\
  set true st 3 17 43690 = set_spec true st 3 17 43690 /\
  set true st 3 17 43690 <> st.
Proof. vm_compute. repeat split; try reflexivity; discriminate. Qed.

(* a field that straddles the usize = 32 boundary takes the u64 fallback *)
Example get_const_nonvacuous :
  let st := [165; 60; 255; 18; 77; 200] in
  wf_storage st = true /\
  asserts_ok (N.of_nat (length st)) 5 30 = true /\
  30 + 5 mod 8 <= 64 /\
  get_const 32 false st 5 30 = get_spec false st 5 30 /\
  get_const 32 true st 5 30 = get_spec true st 5 30 /\
  get_spec false st 5 30 <> 0.
Proof. vm_compute. repeat split; try reflexivity; discriminate. Qed.
