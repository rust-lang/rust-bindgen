(* C03 — composition.  A byte-aligned window commutes with the reference semantics ([slice] with
   get_spec, [splice] with set_spec); Alloc's invariant puts the i-th field of a run inside the unit's
   window, at its C distance from the window's start; on the window the accessor meets the reference. *)
From Coq Require Import NArith ZArith List Bool Lia.
From BG Require Import C03.Model C03.Proofs C03.Alloc C03.AllocProofs C03.Compose.
Import ListNotations.
Open Scope N_scope.

Lemma nth_firstn_lt {A} (d : A) : forall l n i,
  (i < n)%nat -> nth i (firstn n l) d = nth i l d.
Proof.
  induction l as [|a l IH]; intros n i H.
  - rewrite firstn_nil. reflexivity.
  - destruct n as [|n]; [lia|].
    destruct i as [|i]; cbn [firstn nth]; [reflexivity|].
    apply IH. lia.
Qed.

Lemma nth_skipn_add {A} (d : A) : forall k l i,
  nth i (skipn k l) d = nth (k + i) l d.
Proof.
  induction k as [|k IH]; intros l i; [reflexivity|].
  destruct l as [|a l].
  - cbn [skipn]. destruct i; reflexivity.
  - cbn [skipn]. change (S k + i)%nat with (S (k + i)). cbn [nth]. apply IH.
Qed.

Lemma Forall2_nth_error {A B} (R : A -> B -> Prop) : forall l1 l2,
  Forall2 R l1 l2 -> forall i a, nth_error l1 i = Some a ->
  exists b, nth_error l2 i = Some b /\ R a b.
Proof.
  intros l1 l2 F. induction F as [|x y l1 l2 Rxy F IH]; intros i a H.
  - destruct i; discriminate.
  - destruct i as [|i]; cbn [nth_error] in *.
    + injection H as <-. exists y. split; [reflexivity|assumption].
    + apply IH; assumption.
Qed.

Lemma wf_app a b : wf_storage (a ++ b) = wf_storage a && wf_storage b.
Proof. apply forallb_app. Qed.

Lemma wf_firstn_skipn n st : wf_storage st = true ->
  wf_storage (firstn n st) = true /\ wf_storage (skipn n st) = true.
Proof.
  intros H. rewrite <- (firstn_skipn n st), wf_app in H. apply andb_true_iff, H.
Qed.

Lemma byte_at_slice obj k n i :
  i < n -> byte_at (slice obj k n) i = byte_at obj (k + i).
Proof.
  intros H. unfold byte_at, slice.
  rewrite nth_firstn_lt by lia.
  rewrite nth_skipn_add, N2Nat.inj_add. reflexivity.
Qed.

(* bits are numbered byte by byte, so a byte-aligned window shifts bit numbers by 8*k, whatever the
   bit order inside a byte *)
Lemma bit_slice be obj k n j :
  j < 8 * n -> bit be (slice obj k n) j = bit be obj (8 * k + j).
Proof.
  pattern j. apply by_byte_bit. intros i t Ht H.
  rewrite N.add_assoc, <- N.mul_add_distr_l, !bit_at, byte_at_slice by (assumption || lia).
  reflexivity.
Qed.

Lemma length_slice obj k n :
  k + n <= N.of_nat (length obj) -> N.of_nat (length (slice obj k n)) = n.
Proof.
  intros H. unfold slice. rewrite firstn_length, skipn_length. lia.
Qed.

Lemma wf_slice obj k n : wf_storage obj = true -> wf_storage (slice obj k n) = true.
Proof. intros H. apply wf_firstn_skipn, wf_firstn_skipn, H. Qed.

Lemma get_spec_slice be obj k n off w :
  off + w <= 8 * n ->
  get_spec be (slice obj k n) off w = get_spec be obj (8 * k + off) w.
Proof.
  intros H. apply N.bits_inj. intros m. rewrite !testbit_get_spec.
  destruct (N.ltb_spec m w) as [Hm|Hm]; [|reflexivity].
  pose proof (vpos_lt be w m Hm) as Hv.
  rewrite bit_slice by lia. rewrite N.add_assoc. reflexivity.
Qed.

Lemma byte_at_splice obj k u i :
  k <= N.of_nat (length obj) ->
  byte_at (splice obj k u) i =
  if i <? k then byte_at obj i
  else if i <? k + N.of_nat (length u) then byte_at u (i - k)
  else byte_at obj i.
Proof.
  intros Hk. unfold byte_at, splice.
  assert (HL : length (firstn (N.to_nat k) obj) = N.to_nat k)
    by (rewrite firstn_length; lia).
  destruct (N.ltb_spec i k) as [H1|H1].
  - rewrite app_nth1 by (rewrite HL; lia). apply nth_firstn_lt. lia.
  - rewrite app_nth2 by (rewrite HL; lia). rewrite HL.
    destruct (N.ltb_spec i (k + N.of_nat (length u))) as [H2|H2].
    + rewrite app_nth1 by lia. f_equal. lia.
    + rewrite app_nth2 by lia. rewrite nth_skipn_add. f_equal. lia.
Qed.

Lemma length_splice obj k u :
  k + N.of_nat (length u) <= N.of_nat (length obj) ->
  length (splice obj k u) = length obj.
Proof.
  intros H. unfold splice.
  rewrite !app_length, firstn_length, skipn_length. lia.
Qed.

Lemma wf_splice obj k u :
  wf_storage obj = true -> wf_storage u = true -> wf_storage (splice obj k u) = true.
Proof.
  intros Ho Hu. unfold splice. rewrite !wf_app, Hu.
  rewrite (proj1 (wf_firstn_skipn _ obj Ho)), (proj2 (wf_firstn_skipn _ obj Ho)). reflexivity.
Qed.

Lemma splice_set_spec be obj k n off w val :
  wf_storage obj = true -> k + n <= N.of_nat (length obj) -> off + w <= 8 * n ->
  splice obj k (set_spec be (slice obj k n) off w val) =
  set_spec be obj (8 * k + off) w val.
Proof.
  intros Hwf Hlen Hfit.
  pose proof (length_slice obj k n Hlen) as Hls.
  assert (Hlu : N.of_nat (length (set_spec be (slice obj k n) off w val)) = n)
    by (rewrite set_spec_length; exact Hls).
  apply (bits_ext be).
  - apply wf_splice, set_spec_wf, wf_slice; exact Hwf.
  - apply set_spec_wf, Hwf.
  - rewrite set_spec_length. apply length_splice. lia.
  - apply by_byte_bit. intros i t Ht.
    rewrite (bit_at be (splice _ _ _)), byte_at_splice, Hlu, (bit_set_spec be obj)
      by (assumption || lia).
    destruct (N.ltb_spec i k) as [H1|H1]; [|destruct (N.ltb_spec i (k + n)) as [H2|H2]].
    + rewrite <- bit_at, leb_false by (assumption || lia). reflexivity.
    + (* byte e = i - k of the window: both sides test the same bit against the same field *)
      destruct (N.le_exists_sub k i H1) as (e & -> & _).
      rewrite N.add_sub, (N.add_comm e k) in *. apply N.add_lt_mono_l in H2.
      rewrite <- bit_at, bit_set_spec, Hls, bit_slice, !div8 by (assumption || lia).
      rewrite N.mul_add_distr_l, <- !N.add_assoc, leb_add_l, ltb_add_l.
      rewrite N.sub_add_distr, (N.add_comm (8 * k)), N.add_sub.
      rewrite (ltb_true e n H2), (ltb_true (k + e)) by lia. reflexivity.
    + rewrite <- bit_at, (ltb_false (8 * i + t)), andb_false_r by (assumption || lia).
      reflexivity.
Qed.

Lemma run_ok_inv packed bs : run_ok packed bs = true ->
  exists offs, known bs = Some offs /\ Inv (run packed bs) offs.
Proof.
  unfold run_ok. destruct (known bs) as [offs|] eqn:Hk; [|discriminate].
  intros [Hm Hf]%andb_prop. exists offs. split; [reflexivity|].
  apply run_inv; [exact Hk| |exact Hm].
  rewrite forallb_forall in Hf |- *. intros b Hb.
  destruct (andb_prop _ _ (Hf b Hb)) as [_ Hc]. exact Hc.
Qed.

Lemma known_Forall2 : forall bs offs, known bs = Some offs ->
  Forall2 (fun b ow => boff b = Some (fst ow) /\ snd ow = bw b) bs offs.
Proof.
  induction bs as [|a bs IH]; intros offs H.
  - injection H as <-. constructor.
  - rewrite known_cons in H.
    destruct (boff a) as [o|] eqn:Ho; [|discriminate].
    destruct (known bs) as [l|]; [|discriminate].
    injection H as <-. constructor; [split; [exact Ho|reflexivity]|apply IH; reflexivity].
Qed.

Section Field.
Variables (be packed : bool) (bs : list rawbf) (obj : list N) (i : nat) (b : rawbf) (o : N).
Let s := run packed bs.
Hypotheses (Hok : run_ok packed bs = true)
           (Hal : u_start s mod 8 = 0)
           (Hwf : wf_storage obj = true)
           (Hlen : u_start s / 8 + unit_bytes s <= N.of_nat (length obj))
           (Hn : nth_error bs i = Some b) (Ho : boff b = Some o)
           (Hw : 0 < bw b)
           (Hg : bw b + (o - u_start s) mod 8 <= 64).

Lemma field_window :
  exists off, nth_error (u_fields s) i = Some (off, bw b) /\
              8 * (u_start s / 8) + off = o /\
              off + bw b <= 8 * unit_bytes s /\
              bw b + bit_shift off <= 64.
Proof.
  destruct (run_ok_inv _ _ Hok) as (offs & Hk & HI & _).
  destruct (Forall2_nth_error _ _ _ (known_Forall2 bs offs Hk) i b Hn) as ([o' w'] & Hnow & Hbo & Hsw).
  destruct (Forall2_nth_error _ _ _ HI i _ Hnow)
    as ([off w''] & Hnf & Hsf & Hst & Hcov).
  pose proof (unit_bytes_covers s) as Hub.
  fold s in Hnf, Hst, Hcov. cbn [fst snd] in *.
  rewrite Ho in Hbo. injection Hbo as <-. subst w' w''.
  destruct Hst as [Hst|Hst]; [rewrite Hst in Hw; discriminate|].
  rewrite <- Hst, (N.add_comm (u_start s)), N.add_sub in Hg.
  assert (H8 : u_start s = 8 * (u_start s / 8)) by (apply N.div_exact; [discriminate|exact Hal]).
  exists off. rewrite <- H8.
  split; [exact Hnf|]. split; [exact Hst|]. split; [exact (N.le_trans _ _ _ Hcov Hub)|exact Hg].
Qed.

Lemma field_inside : (o + bw b + 7) / 8 <= N.of_nat (length obj).
Proof. destruct field_window as (off & _ & Ho8 & Hcov & _). apply ceil8_le. lia. Qed.

Lemma accessor_reads_the_c_field (g : list N -> N -> N -> N) :
  (forall st off w, wf_storage st = true -> w + bit_shift off <= 64 ->
                    g st off w = get_spec be st off w) ->
  match nth_error (u_fields s) i with
  | Some (off, w) => Some (g (slice obj (u_start s / 8) (unit_bytes s)) off w)
  | None => None
  end = Some (c_get be obj o (bw b)).
Proof.
  intros Hgs. destruct field_window as (off & -> & Ho8 & Hcov & Hg').
  rewrite Hgs, get_spec_slice, Ho8 by auto using wf_slice. reflexivity.
Qed.

Lemma accessor_writes_the_c_field (f : list N -> N -> N -> N -> list N) val :
  (forall st off w, wf_storage st = true -> w + bit_shift off <= 64 ->
                    f st off w val = set_spec be st off w val) ->
  match nth_error (u_fields s) i with
  | Some (off, w) =>
      Some (splice obj (u_start s / 8) (f (slice obj (u_start s / 8) (unit_bytes s)) off w val))
  | None => None
  end = Some (c_set be obj o (bw b) val).
Proof.
  intros Hfs. destruct field_window as (off & -> & Ho8 & Hcov & Hg').
  rewrite Hfs, splice_set_spec, Ho8 by auto using wf_slice. reflexivity.
Qed.

Lemma c_reads_what_c_set val :
  c_get be (c_set be obj o (bw b) val) o (bw b) = val mod 2 ^ bw b /\
  (forall n, n < o \/ o + bw b <= n -> bit be (c_set be obj o (bw b) val) n = bit be obj n) /\
  length (c_set be obj o (bw b) val) = length obj.
Proof.
  split; [apply get_spec_set_spec, field_inside|].
  split; [intros n; apply set_spec_frame|apply set_spec_length].
Qed.
End Field.

Lemma misplaced_unit_refuted : exists be packed bs obj i b o,
  run_ok packed bs = true /\ u_start (run packed bs) mod 8 = 0 /\ wf_storage obj = true /\
  nth_error bs i = Some b /\ boff b = Some o /\
  rust_get be packed bs (u_start (run packed bs) / 8 + 1) obj i <> Some (c_get be obj o (bw b)).
Proof.
  exists false, false,
    [ {| bw := 3; bal := 4; bsz := 4; boff := Some 32; bnamed := true |};
      {| bw := 9; bal := 4; bsz := 4; boff := Some 35; bnamed := true |} ],
    [1; 2; 3; 4; 165; 90; 255; 0; 9; 9; 9; 9], 1%nat,
    {| bw := 9; bal := 4; bsz := 4; boff := Some 35; bnamed := true |}, 35.
  vm_compute. repeat split; try reflexivity. discriminate.
Qed.
