(* C03 — allocation units: with the offsets C reports, every bit-field of a struct's run keeps its C
   distance from the start of the unit and the unit covers it; in a union it need not. *)
From Coq Require Import NArith List Bool.
From BG Require Import C03.Alloc C03.AllocProofs.
Import ListNotations.
Open Scope N_scope.

(* with the offsets the C compiler reports, the rounding step never moves a field ... *)
Theorem placed_is_reported : forall packed s b o,
  boff b = Some o -> c_placed packed b o = true -> 0 < bal b -> placed packed s b = o.
Proof. intros packed s b o Ho Hc _. apply placed_reported; assumption. Qed.
Print Assumptions placed_is_reported.

(* ... so every field of a struct's run sits, inside the unit, at its C distance from the first
   field of the run: unit start + offset in unit = the C bit offset (for all runs, any length) *)
Theorem fields_keep_their_c_offsets : forall packed bs offs,
  known bs = Some offs -> bs <> [] ->
  Forall (fun b => 0 < bal b) bs ->
  forallb (fun b => match boff b with Some o => c_placed packed b o | None => false end) bs = true ->
  ends_monotone offs = true ->
  let s := run packed bs in
  Forall2 (fun ow f => snd ow = 0 \/ u_start s + fst f = fst ow) offs (u_fields s).
Proof. exact C03.AllocProofs.fields_keep_their_c_offsets. Qed.
Print Assumptions fields_keep_their_c_offsets.

(* ... and the unit is long enough for every one of them *)
Theorem unit_covers_every_field : forall packed bs offs,
  known bs = Some offs -> bs <> [] ->
  Forall (fun b => 0 < bal b) bs ->
  forallb (fun b => match boff b with Some o => c_placed packed b o | None => false end) bs = true ->
  ends_monotone offs = true ->
  let s := run packed bs in
  Forall (fun f => fst f + snd f <= u_bits s) (u_fields s) /\ u_bits s <= 8 * unit_bytes s.
Proof. exact C03.AllocProofs.unit_covers_every_field. Qed.
Print Assumptions unit_covers_every_field.

(* in a UNION every bit-field starts at 0: the unit is sized by the LAST field, so an earlier, wider
   one does not fit (known finding) *)
Theorem union_unit_too_small_refuted : exists bs offs,
  known bs = Some offs /\ Forall (fun ow => fst ow = 0) offs /\
  ~ Forall (fun f => fst f + snd f <= u_bits (run false bs)) (u_fields (run false bs)).
Proof. exact C03.AllocProofs.union_unit_too_small_refuted. Qed.
Print Assumptions union_unit_too_small_refuted.
