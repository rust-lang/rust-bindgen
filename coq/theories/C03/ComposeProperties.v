(* C03 — the emitted accessors of the bit-fields of a run, applied to the unit where it sits in the C
   object, read and write the bits C reads and writes for those fields. *)
From Coq Require Import NArith List Bool.
From BG Require Import C03.Model C03.Proofs C03.Alloc C03.Compose C03.ComposeProofs.
Import ListNotations.
Open Scope N_scope.

(* The getter of the i-th bit-field of a run returns, on the bytes of the whole C object, exactly the bits C
   reads for that field -- for every run that satisfies the C placement rule (run_ok), whose first field starts
   on a byte boundary, whose unit lies inside the object at byte u_start/8, and for every field within the
   accessor's 64-bit window.  Little- and big-endian. *)
Theorem getter_reads_the_c_field : forall be packed bs obj i b o,
  run_ok packed bs = true ->
  u_start (run packed bs) mod 8 = 0 ->
  wf_storage obj = true ->
  u_start (run packed bs) / 8 + unit_bytes (run packed bs) <= N.of_nat (length obj) ->
  nth_error bs i = Some b -> boff b = Some o ->
  0 < bw b -> bw b <= 64 ->
  bw b + (o - u_start (run packed bs)) mod 8 <= 64 ->
  rust_get be packed bs (u_start (run packed bs) / 8) obj i = Some (c_get be obj o (bw b)).
Proof.
  intros. unfold rust_get.
  apply accessor_reads_the_c_field; auto using get_meets_spec.
Qed.
Print Assumptions getter_reads_the_c_field.

(* the const fn accessors (usize arithmetic, 32- and 64-bit targets) read the same *)
Theorem const_getter_reads_the_c_field : forall Wsz be packed bs obj i b o,
  Wsz = 32 \/ Wsz = 64 ->
  run_ok packed bs = true ->
  u_start (run packed bs) mod 8 = 0 ->
  wf_storage obj = true ->
  u_start (run packed bs) / 8 + unit_bytes (run packed bs) <= N.of_nat (length obj) ->
  nth_error bs i = Some b -> boff b = Some o ->
  0 < bw b -> bw b <= 64 ->
  bw b + (o - u_start (run packed bs)) mod 8 <= 64 ->
  rust_get_const Wsz be packed bs (u_start (run packed bs) / 8) obj i = Some (c_get be obj o (bw b)).
Proof.
  intros Wsz be packed bs obj i b o HW. intros. unfold rust_get_const.
  apply accessor_reads_the_c_field; auto.
  intros st off w. apply get_const_meets_spec. destruct HW as [->| ->]; reflexivity.
Qed.
Print Assumptions const_getter_reads_the_c_field.

(* The setter stores into the whole object exactly what a C assignment to the field stores: the field's bits
   become the low bits of the value, and NO other bit of the object changes (set_spec's frame property carries
   over: neighbouring fields, other members, padding). *)
Theorem setter_writes_the_c_field : forall be packed bs obj i b o val,
  run_ok packed bs = true ->
  u_start (run packed bs) mod 8 = 0 ->
  wf_storage obj = true ->
  u_start (run packed bs) / 8 + unit_bytes (run packed bs) <= N.of_nat (length obj) ->
  nth_error bs i = Some b -> boff b = Some o ->
  0 < bw b -> bw b <= 64 ->
  bw b + (o - u_start (run packed bs)) mod 8 <= 64 ->
  rust_set be packed bs (u_start (run packed bs) / 8) obj i val = Some (c_set be obj o (bw b) val).
Proof.
  intros. unfold rust_set.
  apply accessor_writes_the_c_field; auto using set_meets_spec.
Qed.
Print Assumptions setter_writes_the_c_field.

(* consequence: writing one field through its Rust setter and reading another (or the same) through C *)
Theorem set_then_c_reads : forall be packed bs obj i b o val obj',
  run_ok packed bs = true ->
  u_start (run packed bs) mod 8 = 0 ->
  wf_storage obj = true ->
  u_start (run packed bs) / 8 + unit_bytes (run packed bs) <= N.of_nat (length obj) ->
  nth_error bs i = Some b -> boff b = Some o ->
  0 < bw b -> bw b <= 64 ->
  bw b + (o - u_start (run packed bs)) mod 8 <= 64 ->
  rust_set be packed bs (u_start (run packed bs) / 8) obj i val = Some obj' ->
  c_get be obj' o (bw b) = val mod 2 ^ bw b /\
  (forall n, n < o \/ o + bw b <= n -> bit be obj' n = bit be obj n) /\
  length obj' = length obj.
Proof.
  intros be packed bs obj i b o val obj' Hok Hal Hwf Hlen Hn Ho Hw Hw64 Hg Hset.
  rewrite (setter_writes_the_c_field be packed bs obj i b o) in Hset by assumption.
  injection Hset as <-.
  apply (c_reads_what_c_set be packed bs obj i b o); assumption.
Qed.
Print Assumptions set_then_c_reads.

(* the unit must sit where the run starts: one byte off and the getter reads other bits (the shape of the known
   finding C03-unit-offset) *)
Theorem misplaced_unit_refuted : exists be packed bs obj i b o,
  run_ok packed bs = true /\ u_start (run packed bs) mod 8 = 0 /\ wf_storage obj = true /\
  nth_error bs i = Some b /\ boff b = Some o /\
  rust_get be packed bs (u_start (run packed bs) / 8 + 1) obj i <> Some (c_get be obj o (bw b)).
Proof. exact C03.ComposeProofs.misplaced_unit_refuted. Qed.
Print Assumptions misplaced_unit_refuted.

(* non-vacuity: a run starting at byte 4 of a 12-byte object, second field straddling a byte *)
Example compose_example :
  let bs := [ {| bw := 3; bal := 4; bsz := 4; boff := Some 32; bnamed := true |};
              {| bw := 9; bal := 4; bsz := 4; boff := Some 35; bnamed := true |} ] in
  let obj := [1; 2; 3; 4; 165; 90; 255; 0; 9; 9; 9; 9] in
  run_ok false bs = true /\ u_start (run false bs) = 32 /\ unit_bytes (run false bs) = 2 /\
  rust_get false false bs 4 obj 1 = Some (c_get false obj 35 9) /\
  rust_get true false bs 4 obj 1 = Some (c_get true obj 35 9).
Proof. vm_compute. repeat split; reflexivity. Qed.
