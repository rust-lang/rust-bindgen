(* C03 — the accessor arithmetic of __BindgenBitfieldUnit against the bit-by-bit reference of
   Model.v: what the reference says, where the arithmetic meets it (under the guard
   [w + off mod 8 <= 64]) and where it does not, and the casts of the emitted getter and setter. *)
From Coq Require Import NArith ZArith List Bool Lia Znumtheory.
From BG Require Import C03.Model C03.Proofs.
Import ListNotations.
Open Scope N_scope.

Definition fits (st : list N) (off w : N) : Prop :=
  asserts_ok (N.of_nat (length st)) off w = true.

(* The reference semantics is what it claims to be: get_spec reads field bit j
   into value bit vpos j and nothing else *)
Theorem get_spec_bits : forall be st off w j,
  j < w -> N.testbit (get_spec be st off w) (vpos be w j) = bit be st (off + j).
Proof.
  intros be st off w j Hj.
  rewrite testbit_get_spec, (vpos_invol be w j Hj), ltb_true by (apply vpos_lt, Hj).
  reflexivity.
Qed.
Print Assumptions get_spec_bits.

Theorem get_spec_bound : forall be st off w, get_spec be st off w < 2 ^ w.
Proof.
  intros be st off w. apply lt_pow2_bits. intros n Hn.
  rewrite testbit_get_spec, ltb_false by exact Hn. reflexivity.
Qed.
Print Assumptions get_spec_bound.

(* set_spec writes val's low w bits into the field ... *)
Theorem set_spec_field : forall be st off w val j,
  (off + w + 7) / 8 <= N.of_nat (length st) -> j < w ->
  bit be (set_spec be st off w val) (off + j) = N.testbit val (vpos be w j).
Proof.
  intros be st off w val j Hlen Hj. apply ceil8_le in Hlen.
  apply bit_set_spec_in; [exact Hj|apply div8_lt; lia].
Qed.
Print Assumptions set_spec_field.

(* ... and leaves every other bit of the object, and its length, unchanged *)
Theorem set_spec_frame : forall be st off w val n,
  (n < off \/ off + w <= n) ->
  bit be (set_spec be st off w val) n = bit be st n.
Proof. exact Proofs.set_spec_frame. Qed.
Print Assumptions set_spec_frame.

Theorem set_spec_length : forall be st off w val,
  length (set_spec be st off w val) = length st.
Proof. exact Proofs.set_spec_length. Qed.
Print Assumptions set_spec_length.

Theorem set_spec_wf : forall be st off w val,
  wf_storage st = true -> wf_storage (set_spec be st off w val) = true.
Proof. exact Proofs.set_spec_wf. Qed.
Print Assumptions set_spec_wf.

(* two well-formed storages with the same bits are the same bytes *)
Theorem bits_ext : forall be st st',
  wf_storage st = true -> wf_storage st' = true -> length st = length st' ->
  (forall n, bit be st n = bit be st' n) -> st = st'.
Proof. exact Proofs.bits_ext. Qed.
Print Assumptions bits_ext.

(* The implementation's arithmetic meets the reference: little- and big-endian,
   u64 path (get/raw_get/set/raw_set) and usize path (the four *_const entry
   points, usize::BITS = 32 or 64).  The guard [w + off mod 8 <= 64] is NOT one of
   the code's debug_assert!s: it is the hypothesis the proof forces, and
   get_correct_refuted / set_correct_refuted show it is needed.  The assertions themselves
   ([fits]) are stated as the code states them; neither the arithmetic nor the reference looks
   at the length of the storage, a byte it lacks reads as 0 and is not written. *)

Theorem get_correct_partial : forall be st off w,
  wf_storage st = true -> fits st off w -> w + off mod 8 <= 64 ->
  get be st off w = get_spec be st off w.
Proof. exact Proofs.get_correct. Qed.
Print Assumptions get_correct_partial.

Theorem get_const_correct_partial : forall Wsz be st off w,
  Wsz = 32 \/ Wsz = 64 ->
  wf_storage st = true -> fits st off w -> w + off mod 8 <= 64 ->
  get_const Wsz be st off w = get_spec be st off w.
Proof.
  intros Wsz be st off w HW Hwf _. apply get_const_meets_spec; [|exact Hwf].
  destruct HW as [->| ->]; reflexivity.
Qed.
Print Assumptions get_const_correct_partial.

Theorem set_correct_partial : forall be st off w val,
  wf_storage st = true -> fits st off w -> w + off mod 8 <= 64 ->
  set be st off w val = set_spec be st off w val.
Proof. exact Proofs.set_correct. Qed.
Print Assumptions set_correct_partial.

Theorem set_const_correct_partial : forall Wsz be st off w val,
  Wsz = 32 \/ Wsz = 64 ->
  wf_storage st = true -> fits st off w -> w + off mod 8 <= 64 ->
  set_const Wsz be st off w val = set_spec be st off w val.
Proof.
  intros Wsz be st off w val HW Hwf _. apply set_const_meets_spec; [|exact Hwf].
  destruct HW as [->| ->]; reflexivity.
Qed.
Print Assumptions set_const_correct_partial.

(* The full-strength statements (no guard beyond the code's own assertions)
   are false of the faithful model: a 64-bit field at bit 4 of a 9-byte unit. *)
Theorem get_correct_refuted : exists be st off w,
  wf_storage st = true /\ fits st off w /\
  get be st off w <> get_spec be st off w.
Proof.
  exists false, [31; 0; 0; 0; 0; 0; 0; 0; 248], 4, 64.
  split; [reflexivity|]. split; [reflexivity|].
  vm_compute. discriminate.
Qed.
Print Assumptions get_correct_refuted.

Theorem set_correct_refuted : exists be st off w val,
  wf_storage st = true /\ fits st off w /\
  set be st off w val <> set_spec be st off w val.
Proof.
  exists false, [31; 0; 0; 0; 0; 0; 0; 0; 248], 4, 64, 0.
  split; [reflexivity|]. split; [reflexivity|].
  vm_compute. discriminate.
Qed.
Print Assumptions set_correct_refuted.

(* [dbg_ok] spelled out: the code's assertions, and the guard unless w = 0.  That a debug build
   panics exactly outside it is not proved (the model's shifts wrap, none panics): props/c03.py
   compares it with a build with overflow checks. *)
Theorem dbg_ok_iff_guard : forall st off w,
  dbg_ok (N.of_nat (length st)) off w = true <->
  (fits st off w /\ (w = 0 \/ w + off mod 8 <= 64)).
Proof.
  intros st off w. unfold dbg_ok, bit_shift, fits.
  rewrite andb_true_iff, orb_true_iff, N.eqb_eq, N.leb_le. reflexivity.
Qed.
Print Assumptions dbg_ok_iff_guard.

Theorem get_set : forall be st off w val,
  wf_storage st = true -> fits st off w -> w + off mod 8 <= 64 ->
  get be (set be st off w val) off w = val mod 2 ^ w.
Proof. exact Proofs.get_set. Qed.
Print Assumptions get_set.

Theorem set_preserves_other_field : forall be st off w val off' w',
  wf_storage st = true -> fits st off w -> w + off mod 8 <= 64 ->
  fits st off' w' -> w' + off' mod 8 <= 64 ->
  (off' + w' <= off \/ off + w <= off') ->
  get be (set be st off w val) off' w' = get be st off' w'.
Proof. intros be st off w val off' w' Hwf _ Hg _. apply get_set_other; assumption. Qed.
Print Assumptions set_preserves_other_field.

Theorem set_commute : forall be st off w val off' w' val',
  wf_storage st = true -> fits st off w -> w + off mod 8 <= 64 ->
  fits st off' w' -> w' + off' mod 8 <= 64 ->
  (off' + w' <= off \/ off + w <= off') ->
  set be (set be st off w val) off' w' val' =
  set be (set be st off' w' val') off w val.
Proof. exact Proofs.set_commute. Qed.
Print Assumptions set_commute.

(* the cast the emitted getter puts around get (Model.v, accessor layer) is right for an
   unsigned field ... *)
Theorem getter_unsigned_correct : forall tybits w raw,
  w <= tybits -> raw < 2 ^ w ->
  getter_value tybits false raw = c_field_value w false raw.
Proof.
  intros tybits w raw Hw Hraw. unfold getter_value, c_field_value.
  assert (Hpow : 2 ^ w <= 2 ^ tybits) by (apply N.pow_le_mono_r; [discriminate|exact Hw]).
  rewrite N.mod_small by lia. reflexivity.
Qed.
Print Assumptions getter_unsigned_correct.

(* ... and for a signed field that fills its type (w = tybits) *)
Theorem getter_signed_correct_partial : forall tybits raw,
  0 < tybits -> raw < 2 ^ tybits ->
  getter_value tybits true raw = c_field_value tybits true raw.
Proof.
  intros tybits raw _ Hraw. unfold getter_value, c_field_value.
  rewrite N.mod_small by exact Hraw. reflexivity.
Qed.
Print Assumptions getter_signed_correct_partial.

(* the emitted getter zero-extends: a signed 3-bit field holding 0b111 is
   read as 7 where C reads -1 *)
Theorem getter_signed_refuted : exists tybits w raw,
  0 < w /\ w < tybits /\ raw < 2 ^ w /\
  getter_value tybits true raw <> c_field_value w true raw.
Proof.
  exists 32, 3, 7.
  split; [reflexivity|]. split; [reflexivity|]. split; [reflexivity|].
  vm_compute. discriminate.
Qed.
Print Assumptions getter_signed_refuted.

(* the setter path stores exactly the low w bits of the two's-complement value *)
Theorem setter_truncates : forall tybits w (val : Z),
  w <= tybits -> tybits <= 64 ->
  (setter_raw tybits val) mod 2 ^ w = Z.to_N (Z.modulo val (Z.pow 2 (Z.of_N w))).
Proof.
  intros tybits w val Hw _. unfold setter_raw.
  assert (Hpw : (0 < 2 ^ Z.of_N w)%Z) by (apply Z.pow_pos_nonneg; lia).
  assert (Hpt : (0 < 2 ^ Z.of_N tybits)%Z) by (apply Z.pow_pos_nonneg; lia).
  assert (H2w : 2 ^ w = Z.to_N (2 ^ Z.of_N w)).
  { rewrite Z2N.inj_pow by lia. rewrite N2Z.id. reflexivity. }
  pose proof (Z.mod_pos_bound val _ Hpt) as Hb.
  rewrite H2w, <- Z2N.inj_mod by lia.
  f_equal. symmetry. apply Zmod_div_mod; try assumption.
  exists (2 ^ (Z.of_N tybits - Z.of_N w))%Z.
  rewrite <- Z.pow_add_r by lia. f_equal. lia.
Qed.
Print Assumptions setter_truncates.
