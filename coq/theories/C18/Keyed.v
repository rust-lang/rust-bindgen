(* C18 — merge_extern_blocks.rs compares attrs, abi and unsafety.  The correspondence run
   therefore feeds the model keys of the form 2*k + (1 if unsafe); for such keys the
   consistency hypothesis of the multiset theorems holds for every input. *)
From Coq Require Import NArith List Bool Permutation.
From BG Require Import C18.Model C18.Proofs.
Import ListNotations.
Open Scope N_scope.

Definition keyed_item (i : item) : bool :=
  match i with Foreign k u _ => Bool.eqb (N.odd k) u | _ => true end.
Definition keyed (l : list item) : bool := forallb keyed_item l.

Fixpoint deep_keyed_item (i : item) : bool :=
  match i with
  | Module _ (Some c) => forallb keyed_item c && forallb deep_keyed_item c
  | _ => true
  end.
Definition deep_keyed (l : list item) : bool := keyed l && forallb deep_keyed_item l.

Lemma keyed_consistent l : keyed l = true -> unsafety_consistent l = true.
Proof.
  induction l as [|i l IH]; intros Hk; [reflexivity|].
  cbn [keyed forallb] in Hk. apply andb_prop in Hk as [Hi Hl].
  specialize (IH Hl). destruct i as [k id|k u fs|id c]; cbn [unsafety_consistent]; try exact IH.
  apply andb_true_intro. split; [|exact IH].
  apply forallb_forall. intros j Hj. apply (proj1 (forallb_forall _ _) Hl) in Hj.
  destruct j as [k' id'|k' u' fs'|id' c']; try reflexivity.
  destruct (N.eqb_spec k k') as [<-|Hne]; cbn [negb orb]; [|reflexivity].
  (* both blocks carry the unsafety their common key encodes *)
  apply eqb_prop in Hi. apply eqb_prop in Hj. subst. apply eqb_reflx.
Qed.

Lemma merge_level_multiset_keyed l :
  keyed l = true -> Permutation (foreign_leaves (merge_level l)) (foreign_leaves l).
Proof.
  intros H. apply Proofs.merge_level_multiset_functional, Proofs.consistent_functional,
    keyed_consistent, H.
Qed.

Lemma passes_leaves_keyed rk m s l :
  deep_keyed l = true -> Permutation (leaves (passes rk m s l)) (leaves l).
Proof.
  exact (Proofs.passes_leaves_gen deep_keyed_item keyed (fun _ _ H => H) keyed_consistent
           rk m s l []).
Qed.
