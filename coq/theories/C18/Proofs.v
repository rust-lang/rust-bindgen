(* C18 — theory of the model.  [merge_level] has a normal form: the items that are not extern
   blocks, then the blocks that [absorb] builds from the extern blocks in order; the
   statements about one level are read off it.  [sort_level] is insertion sort. *)
From Coq Require Import NArith List Bool Permutation Sorted.
From BG Require Import C18.Model.
Import ListNotations.
Open Scope N_scope.

Lemma item_ind' : forall P : item -> Prop,
  (forall k id, P (Plain k id)) ->
  (forall k u fs, P (Foreign k u fs)) ->
  (forall id, P (Module id None)) ->
  (forall id c, (forall x, In x c -> P x) -> P (Module id (Some c))) ->
  forall i, P i.
Proof.
  intros P HP HF HN HS. fix IH 1. intros [k id|k u fs|id [c|]]; [apply HP|apply HF| |apply HN].
  apply HS. induction c as [|y t IHt]; intros x Hx; [destruct Hx|].
  destruct Hx as [<-|Hx]; [apply IH|apply IHt, Hx].
Qed.

Lemma filter_comm : forall {A} (p q : A -> bool) (l : list A),
  filter p (filter q l) = filter q (filter p l).
Proof.
  intros A p q l. induction l as [|a t IH]; [reflexivity|].
  cbn [filter]. destruct (q a) eqn:Hq; destruct (p a) eqn:Hp; cbn [filter];
    rewrite ?Hq, ?Hp, IH; reflexivity.
Qed.

Lemma flat_map_map_perm : forall {A B C} (f : B -> list C) (g : A -> B) (h : A -> list C) l,
  (forall x, In x l -> Permutation (f (g x)) (h x)) ->
  Permutation (flat_map f (map g l)) (flat_map h l).
Proof.
  intros A B C f g h l H. induction l as [|a t IH]; [constructor|].
  cbn [map flat_map]. apply Permutation_app; [apply H; left; reflexivity|].
  apply IH. intros x Hx. apply H. right. exact Hx.
Qed.

Lemma map_id_in : forall {A} (f : A -> A) (l : list A),
  (forall x, In x l -> f x = x) -> map f l = l.
Proof.
  intros A f l H. rewrite <- (map_id l) at 2. apply map_ext_in. exact H.
Qed.

Definition triple := (N * bool * list N)%type.

Definition fblocks (l : list item) : list triple :=
  flat_map (fun i => match i with Foreign k u fs => [(k, u, fs)] | _ => [] end) l.

Lemma blocks_of_fblocks : forall l, map block_item (fblocks l) = filter is_foreign l.
Proof.
  induction l as [|i t IH]; [reflexivity|].
  unfold fblocks in *. destruct i as [k id|k u fs|id c]; cbn; rewrite ?IH; reflexivity.
Qed.

Definition absorb_all (b : list triple) (ts : list triple) : list triple :=
  fold_left (fun b t => match t with (k, u, fs) => absorb b k u fs end) ts b.

Lemma absorb_all_cons : forall b k u fs ts,
  absorb_all b ((k, u, fs) :: ts) = absorb_all (absorb b k u fs) ts.
Proof. reflexivity. Qed.

Lemma merge_scan_char : forall items others blocks,
  merge_scan items others blocks =
  (others ++ non_foreign items, absorb_all blocks (fblocks items)).
Proof.
  induction items as [|i rest IH]; intros others blocks.
  - cbn. rewrite app_nil_r. reflexivity.
  - destruct i as [k id|k u fs|id c]; cbn [merge_scan]; rewrite IH;
      unfold non_foreign; cbn; rewrite <- ?app_assoc; reflexivity.
Qed.

Lemma merge_level_char : forall l,
  merge_level l = non_foreign l ++ map block_item (absorb_all [] (fblocks l)).
Proof.
  intros l. unfold merge_level. rewrite merge_scan_char. reflexivity.
Qed.

Lemma is_foreign_block_item : forall t, is_foreign (block_item t) = true.
Proof. intros [[k u] fs]. reflexivity. Qed.

Lemma non_foreign_app : forall a b, non_foreign (a ++ b) = non_foreign a ++ non_foreign b.
Proof. intros a b. apply filter_app. Qed.

Lemma non_foreign_blocks : forall b, non_foreign (map block_item b) = [].
Proof.
  induction b as [|t b IH]; [reflexivity|].
  unfold non_foreign in *. cbn [map filter]. rewrite is_foreign_block_item. exact IH.
Qed.

Lemma non_foreign_idem : forall l, non_foreign (non_foreign l) = non_foreign l.
Proof.
  induction l as [|i t IH]; [reflexivity|].
  unfold non_foreign in *. destruct i as [k id|k u fs|id c]; cbn; rewrite IH; reflexivity.
Qed.

Lemma fblocks_app : forall a b, fblocks (a ++ b) = fblocks a ++ fblocks b.
Proof. intros a b. apply flat_map_app. Qed.

Lemma fblocks_non_foreign : forall l, fblocks (non_foreign l) = [].
Proof.
  induction l as [|i t IH]; [reflexivity|].
  unfold fblocks, non_foreign in *. destruct i as [k id|k u fs|id c]; cbn; exact IH.
Qed.

Lemma fblocks_blocks : forall b, fblocks (map block_item b) = b.
Proof.
  induction b as [|[[k u] fs] b IH]; [reflexivity|].
  unfold fblocks in *. cbn. rewrite IH. reflexivity.
Qed.

Lemma foreign_of_non_foreign : forall l, filter is_foreign (non_foreign l) = [].
Proof. intros l. rewrite <- blocks_of_fblocks, fblocks_non_foreign. reflexivity. Qed.

Lemma foreign_of_blocks : forall b, filter is_foreign (map block_item b) = map block_item b.
Proof. intros b. rewrite <- blocks_of_fblocks, fblocks_blocks. reflexivity. Qed.

Lemma merge_level_non_foreign : forall l,
  non_foreign (merge_level l) = non_foreign l.
Proof.
  intros l. rewrite merge_level_char, non_foreign_app, non_foreign_idem,
    non_foreign_blocks, app_nil_r. reflexivity.
Qed.

(* [block_keys] and [foreign_leaves] see of a level only its [fblocks] ([bkeys_fblocks],
   [bleaves_fblocks]): what they see after a merge is a statement about [absorb_all] *)
Lemma fblocks_merge_level : forall l, fblocks (merge_level l) = absorb_all [] (fblocks l).
Proof.
  intros l. rewrite merge_level_char, fblocks_app, fblocks_non_foreign, fblocks_blocks.
  reflexivity.
Qed.

Definition bkeys (b : list triple) : list N := map (fun t => fst (fst t)) b.

Lemma bkeys_fblocks : forall l, bkeys (fblocks l) = block_keys l.
Proof.
  induction l as [|i t IH]; [reflexivity|].
  unfold fblocks, block_keys, bkeys in *.
  destruct i as [k id|k u fs|id c]; cbn; rewrite ?IH; reflexivity.
Qed.

Lemma bkeys_app : forall a b, bkeys (a ++ b) = bkeys a ++ bkeys b.
Proof. intros a b. apply map_app. Qed.

Definition bleaves (b : list triple) : list (N * bool * N) :=
  flat_map (fun t => match t with (k, u, fs) => map (fun f => (k, u, f)) fs end) b.

Lemma bleaves_fblocks : forall l, bleaves (fblocks l) = foreign_leaves l.
Proof.
  induction l as [|i t IH]; [reflexivity|].
  unfold fblocks, foreign_leaves, bleaves in *.
  destruct i as [k id|k u fs|id c]; cbn; rewrite ?app_nil_r, ?IH; reflexivity.
Qed.

Lemma bleaves_cons : forall k u fs b,
  bleaves ((k, u, fs) :: b) = map (fun f => (k, u, f)) fs ++ bleaves b.
Proof. reflexivity. Qed.

Lemma absorb_keys_in : forall b k u fs,
  In k (bkeys b) -> bkeys (absorb b k u fs) = bkeys b.
Proof.
  induction b as [|[[k0 u0] fs0] b IH]; intros k u fs Hin; [destruct Hin|].
  cbn [absorb]. destruct (N.eqb_spec k0 k) as [_|Hne]; [reflexivity|].
  unfold bkeys in *. cbn [map fst] in *. f_equal. apply IH.
  destruct Hin as [Hin|Hin]; [contradiction|exact Hin].
Qed.

Lemma absorb_notin : forall b k u fs,
  ~ In k (bkeys b) -> absorb b k u fs = b ++ [(k, u, fs)].
Proof.
  induction b as [|[[k0 u0] fs0] b IH]; intros k u fs Hnin; [reflexivity|].
  cbn [absorb]. destruct (N.eqb_spec k0 k) as [E|_].
  - exfalso. apply Hnin. left. exact E.
  - cbn [app]. f_equal. apply IH. intros Hin. apply Hnin. right. exact Hin.
Qed.

Lemma absorb_nodup : forall b k u fs,
  NoDup (bkeys b) -> NoDup (bkeys (absorb b k u fs)).
Proof.
  intros b k u fs Hnd. destruct (in_dec N.eq_dec k (bkeys b)) as [Hin|Hnin].
  - rewrite absorb_keys_in by exact Hin. exact Hnd.
  - rewrite absorb_notin by exact Hnin. rewrite bkeys_app. cbn.
    apply (Permutation_NoDup (Permutation_cons_append (bkeys b) k)).
    constructor; assumption.
Qed.

Lemma absorb_all_nodup : forall ts b,
  NoDup (bkeys b) -> NoDup (bkeys (absorb_all b ts)).
Proof.
  induction ts as [|[[k u] fs] ts IH]; intros b Hnd; [exact Hnd|].
  rewrite absorb_all_cons. apply IH, absorb_nodup, Hnd.
Qed.

Lemma merge_level_distinct_keys : forall l, NoDup (block_keys (merge_level l)).
Proof.
  intros l. rewrite <- bkeys_fblocks, fblocks_merge_level. apply absorb_all_nodup. constructor.
Qed.

Lemma absorb_all_distinct : forall ts b,
  NoDup (bkeys b ++ bkeys ts) -> absorb_all b ts = b ++ ts.
Proof.
  induction ts as [|[[k u] fs] ts IH]; intros b Hnd.
  - cbn. rewrite app_nil_r. reflexivity.
  - rewrite absorb_all_cons.
    change (bkeys ((k, u, fs) :: ts)) with (k :: bkeys ts) in Hnd.
    rewrite absorb_notin.
    + rewrite IH, <- app_assoc; [reflexivity|].
      rewrite bkeys_app, <- app_assoc. exact Hnd.
    + apply NoDup_remove_2 in Hnd. intros Hin. apply Hnd. apply in_or_app. left. exact Hin.
Qed.

Lemma merge_level_distinct : forall l,
  NoDup (block_keys l) -> merge_level l = non_foreign l ++ filter is_foreign l.
Proof.
  intros l Hnd. rewrite merge_level_char, absorb_all_distinct.
  - cbn [app]. rewrite blocks_of_fblocks. reflexivity.
  - cbn [bkeys map app]. rewrite bkeys_fblocks. exact Hnd.
Qed.

Lemma merge_level_regrouped : forall l,
  non_foreign (merge_level l) ++ filter is_foreign (merge_level l) = merge_level l.
Proof.
  intros l. rewrite <- blocks_of_fblocks, fblocks_merge_level, merge_level_non_foreign.
  symmetry. apply merge_level_char.
Qed.

Lemma merge_level_idem : forall l, merge_level (merge_level l) = merge_level l.
Proof.
  intros l. rewrite (merge_level_distinct _ (merge_level_distinct_keys l)).
  apply merge_level_regrouped.
Qed.

Lemma merge_level_In : forall x l, In x (merge_level l) -> In x l \/ is_foreign x = true.
Proof.
  intros x l Hin. rewrite merge_level_char in Hin. apply in_app_or in Hin as [Hin|Hin].
  - left. apply filter_In in Hin. apply Hin.
  - right. apply in_map_iff in Hin as [t [<- _]]. apply is_foreign_block_item.
Qed.

Definition per_key (k : N) (ls : list (N * bool * N)) : list N :=
  map snd (filter (fun t => fst (fst t) =? k) ls).

Lemma per_key_app : forall k a b, per_key k (a ++ b) = per_key k a ++ per_key k b.
Proof. intros k a b. unfold per_key. rewrite filter_app, map_app. reflexivity. Qed.

Lemma per_key_block : forall k' k u fs,
  per_key k' (map (fun f => (k, u, f)) fs) = if k =? k' then fs else [].
Proof.
  intros k' k u fs. unfold per_key. induction fs as [|f fs IH].
  - destruct (k =? k'); reflexivity.
  - cbn [map filter fst]. destruct (k =? k') eqn:E.
    + cbn [map snd]. rewrite IH. reflexivity.
    + exact IH.
Qed.

Lemma per_key_notin : forall b k, ~ In k (bkeys b) -> per_key k (bleaves b) = [].
Proof.
  induction b as [|[[k0 u0] fs0] b IH]; intros k Hnin; [reflexivity|].
  rewrite bleaves_cons, per_key_app, per_key_block.
  destruct (N.eqb_spec k0 k) as [E|_].
  - exfalso. apply Hnin. left. exact E.
  - apply IH. intros Hin. apply Hnin. right. exact Hin.
Qed.

Lemma absorb_per_key : forall b k u fs k',
  NoDup (bkeys b) ->
  per_key k' (bleaves (absorb b k u fs)) =
  per_key k' (bleaves b) ++ (if k =? k' then fs else []).
Proof.
  induction b as [|[[k0 u0] fs0] b IH]; intros k u fs k' Hnd.
  - cbn [absorb]. rewrite bleaves_cons, per_key_app, per_key_block.
    cbn. rewrite app_nil_r. reflexivity.
  - cbn [absorb]. apply NoDup_cons_iff in Hnd as [Hnin Hnd'].
    destruct (N.eqb_spec k0 k) as [->|_].
    + rewrite !bleaves_cons, !per_key_app, !per_key_block.
      destruct (N.eqb_spec k k') as [<-|_].
      * rewrite (per_key_notin b k Hnin). rewrite !app_nil_r. reflexivity.
      * rewrite app_nil_r. reflexivity.
    + rewrite !bleaves_cons, !per_key_app. rewrite IH by exact Hnd'.
      rewrite app_assoc. reflexivity.
Qed.

Lemma absorb_all_per_key : forall ts b k,
  NoDup (bkeys b) ->
  per_key k (bleaves (absorb_all b ts)) = per_key k (bleaves b) ++ per_key k (bleaves ts).
Proof.
  induction ts as [|[[k0 u0] fs0] ts IH]; intros b k Hnd.
  - cbn. rewrite app_nil_r. reflexivity.
  - rewrite absorb_all_cons.
    rewrite IH by (apply absorb_nodup; exact Hnd).
    rewrite absorb_per_key by exact Hnd.
    rewrite bleaves_cons, per_key_app, per_key_block, app_assoc. reflexivity.
Qed.

Definition kus (b : list triple) : list (N * bool) :=
  map (fun t => (fst (fst t), snd (fst t))) b.

Lemma kus_app : forall a b, kus (a ++ b) = kus a ++ kus b.
Proof. intros a b. unfold kus. apply map_app. Qed.

(* blocks of equal key agree on their unsafety: then [absorb], which keeps the unsafety of the
   first block of a key, changes no leaf *)
Definition functional (l : list (N * bool)) : Prop :=
  forall k u u', In (k, u) l -> In (k, u') l -> u = u'.

Lemma absorb_kus_incl : forall b k u fs r,
  incl (kus (absorb b k u fs) ++ r) (kus b ++ (k, u) :: r).
Proof.
  induction b as [|[[k0 u0] fs0] b IH]; intros k u fs r; [apply incl_refl|].
  cbn [absorb]. destruct (k0 =? k).
  - apply (incl_app_app (incl_refl ((k0, u0) :: kus b))), incl_tl, incl_refl.
  - apply incl_cons; [left; reflexivity|]. apply incl_tl, IH.
Qed.

Lemma absorb_perm : forall b k u fs,
  (forall u', In (k, u') (kus b) -> u' = u) ->
  Permutation (bleaves (absorb b k u fs)) (bleaves b ++ map (fun f => (k, u, f)) fs).
Proof.
  induction b as [|[[k0 u0] fs0] b IH]; intros k u fs Hc.
  - cbn [absorb]. rewrite bleaves_cons. cbn. rewrite app_nil_r. apply Permutation_refl.
  - cbn [absorb]. destruct (N.eqb_spec k0 k) as [->|_].
    + rewrite (Hc u0) by (left; reflexivity).
      rewrite !bleaves_cons, map_app, <- !app_assoc.
      apply Permutation_app_head. apply Permutation_app_comm.
    + rewrite !bleaves_cons, <- app_assoc. apply Permutation_app_head.
      apply IH. intros u' Hin. apply Hc. right. exact Hin.
Qed.

Lemma absorb_all_perm : forall ts b,
  functional (kus b ++ kus ts) ->
  Permutation (bleaves (absorb_all b ts)) (bleaves b ++ bleaves ts).
Proof.
  induction ts as [|[[k u] fs] ts IH]; intros b Hf.
  - cbn. rewrite app_nil_r. apply Permutation_refl.
  - rewrite absorb_all_cons.
    eapply Permutation_trans; [apply IH|].
    + intros k1 u1 u1' H1 H2.
      apply (Hf k1); apply (absorb_kus_incl b k u fs (kus ts)); assumption.
    + rewrite bleaves_cons, app_assoc. apply Permutation_app_tail.
      apply absorb_perm. intros u' Hin. apply (Hf k); apply in_or_app;
        [left; exact Hin|right; left; reflexivity].
Qed.

Lemma consistent_functional : forall l,
  unsafety_consistent l = true -> functional (kus (fblocks l)).
Proof.
  induction l as [|i t IH]; intros Huc; [intros k u u' []|].
  destruct i as [k0 id|k0 u0 fs0|id c]; try (apply IH; exact Huc).
  cbn [unsafety_consistent] in Huc. apply andb_prop in Huc as [Hall Huc]. specialize (IH Huc).
  assert (Hhead : forall u', In (k0, u') (kus (fblocks t)) -> u0 = u').
  { clear - Hall. induction t as [|j t IHt]; intros u' Hin; [destruct Hin|].
    cbn [forallb] in Hall. apply andb_prop in Hall as [Hj Hall].
    destruct j as [k id|k u fs|id c]; try (apply IHt; assumption).
    destruct Hin as [E|Hin]; [|apply IHt; assumption].
    injection E as -> ->. rewrite N.eqb_refl in Hj. apply Bool.eqb_prop. exact Hj. }
  intros k u u' [H1|H1] [H2|H2].
  - congruence.
  - injection H1 as <- <-. apply Hhead. exact H2.
  - injection H2 as <- <-. symmetry. apply Hhead. exact H1.
  - apply (IH k); assumption.
Qed.

Lemma merge_level_multiset_functional : forall l,
  functional (kus (fblocks l)) ->
  Permutation (foreign_leaves (merge_level l)) (foreign_leaves l).
Proof.
  intros l Hf. rewrite <- !bleaves_fblocks, fblocks_merge_level.
  apply (absorb_all_perm (fblocks l) []). exact Hf.
Qed.

Definition module_local (g : item -> item) : Prop :=
  forall i, match i with
            | Module id _ => exists c', g i = Module id c'
            | _ => g i = i
            end.

Lemma module_local_foreign : forall g i, module_local g -> is_foreign i = true -> g i = i.
Proof.
  intros g i Hg Hi. specialize (Hg i). destruct i as [k id|k u fs|id c]; try discriminate Hi.
  exact Hg.
Qed.

Lemma fblocks_map : forall g l, module_local g -> fblocks (map g l) = fblocks l.
Proof.
  intros g l Hg. induction l as [|i t IH]; [reflexivity|].
  unfold fblocks in *. cbn [map flat_map]. rewrite IH. f_equal.
  specialize (Hg i). destruct i as [k id|k u fs|id c];
    [rewrite Hg|rewrite Hg|destruct Hg as [c' ->]]; reflexivity.
Qed.

Lemma non_foreign_map : forall g l, module_local g ->
  non_foreign (map g l) = map g (non_foreign l).
Proof.
  intros g l Hg. induction l as [|i t IH]; [reflexivity|].
  unfold non_foreign in *. cbn [map filter]. rewrite IH.
  replace (is_foreign (g i)) with (is_foreign i); [destruct (is_foreign i); reflexivity|].
  specialize (Hg i). destruct i as [k id|k u fs|id c];
    [rewrite Hg|rewrite Hg|destruct Hg as [c' ->]]; reflexivity.
Qed.

(* merging a level commutes with a map that only rewrites module bodies (the hypothesis is
   [module_local g]): [merge_level] neither looks into a module nor moves one past another.  This
   is what lets [merge_deep], which descends first, stand for the visitor, which merges first *)
Lemma merge_level_map_commute : forall (g : item -> item) (l : list item),
  (forall i, match i with
             | Module id _ => exists c', g i = Module id c'
             | _ => g i = i
             end) ->
  merge_level (map g l) = map g (merge_level l).
Proof.
  intros g l Hg. rewrite !merge_level_char, map_app.
  rewrite (fblocks_map g l Hg), (non_foreign_map g l Hg). f_equal.
  symmetry. apply map_id_in. intros x Hx. apply (module_local_foreign g x Hg).
  apply in_map_iff in Hx as [t [<- _]]. apply is_foreign_block_item.
Qed.

Lemma insert_perm : forall rk x l, Permutation (insert rk x l) (x :: l).
Proof.
  intros rk x l. induction l as [|y t IH]; [apply Permutation_refl|].
  cbn [insert]. destruct (rk x <=? rk y).
  - apply Permutation_refl.
  - eapply Permutation_trans; [apply perm_skip; exact IH|apply perm_swap].
Qed.

Lemma sort_level_perm : forall rk l, Permutation (sort_level rk l) l.
Proof.
  intros rk l. induction l as [|x t IH]; [constructor|].
  unfold sort_level in *. cbn [fold_right].
  eapply Permutation_trans; [apply insert_perm|apply perm_skip; exact IH].
Qed.

Lemma insert_sorted : forall rk x l,
  StronglySorted (fun a b => rk a <= rk b) l ->
  StronglySorted (fun a b => rk a <= rk b) (insert rk x l).
Proof.
  intros rk x l HS. induction HS as [|y t HSt IH Hall].
  - cbn. constructor; constructor.
  - cbn [insert]. destruct (rk x <=? rk y) eqn:E.
    + apply N.leb_le in E. constructor.
      * constructor; assumption.
      * constructor; [exact E|].
        apply (Forall_impl (fun b => rk x <= rk b)) with (2 := Hall).
        intros a Ha. exact (N.le_trans _ _ _ E Ha).
    + apply N.leb_gt in E. constructor; [exact IH|].
      apply (Permutation_Forall (Permutation_sym (insert_perm rk x t))).
      constructor; [apply N.lt_le_incl, E|exact Hall].
Qed.

Lemma sort_level_sorted : forall rk l,
  StronglySorted (fun a b => rk a <= rk b) (sort_level rk l).
Proof.
  intros rk l. induction l as [|x t IH]; [constructor|].
  unfold sort_level in *. cbn [fold_right]. apply insert_sorted. exact IH.
Qed.

Lemma insert_filter : forall rk x l r,
  filter (fun i => rk i =? r) (insert rk x l) =
  if rk x =? r then x :: filter (fun i => rk i =? r) l
  else filter (fun i => rk i =? r) l.
Proof.
  intros rk x l r. induction l as [|y t IH].
  - cbn. destruct (rk x =? r); reflexivity.
  - cbn [insert]. destruct (rk x <=? rk y) eqn:E.
    + cbn [filter]. reflexivity.
    + cbn [filter]. rewrite IH. apply N.leb_gt in E.
      destruct (rk x =? r) eqn:Ex; destruct (rk y =? r) eqn:Ey; try reflexivity.
      apply N.eqb_eq in Ex. apply N.eqb_eq in Ey. rewrite Ex, Ey in E. destruct (N.lt_irrefl _ E).
Qed.

Lemma sort_level_stable : forall rk l r,
  filter (fun i => rk i =? r) (sort_level rk l) = filter (fun i => rk i =? r) l.
Proof.
  intros rk l r. induction l as [|x t IH]; [reflexivity|].
  unfold sort_level in *. cbn [fold_right]. rewrite insert_filter, IH.
  cbn [filter]. reflexivity.
Qed.

Lemma head_in_of_filters : forall (rk : item -> N) x t l,
  (forall r, filter (fun i => rk i =? r) (x :: t) = filter (fun i => rk i =? r) l) -> In x l.
Proof.
  intros rk x t l H. specialize (H (rk x)). cbn [filter] in H. rewrite N.eqb_refl in H.
  eapply proj1, filter_In. rewrite <- H. left. reflexivity.
Qed.

Lemma sorted_head_le : forall (rk : item -> N) x y t,
  StronglySorted (fun a b => rk a <= rk b) (y :: t) -> In x (y :: t) -> rk y <= rk x.
Proof.
  intros rk x y t S [->|Hin]; [apply N.le_refl|]. apply StronglySorted_inv in S as [_ A].
  rewrite Forall_forall in A. apply A. exact Hin.
Qed.

Lemma sorted_filter_ext : forall (rk : item -> N) (l1 l2 : list item),
  StronglySorted (fun a b => rk a <= rk b) l1 ->
  StronglySorted (fun a b => rk a <= rk b) l2 ->
  (forall r, filter (fun i => rk i =? r) l1 = filter (fun i => rk i =? r) l2) ->
  l1 = l2.
Proof.
  intros rk l1. induction l1 as [|x t1 IH]; intros [|y t2] S1 S2 H.
  - reflexivity.
  - destruct (head_in_of_filters rk y t2 [] (fun r => eq_sym (H r))).
  - destruct (head_in_of_filters rk x t1 [] H).
  - (* the head of each list occurs in the other, so the two heads have the same, least,
       rank and are both the first item of that rank *)
    pose proof (sorted_head_le rk x y t2 S2 (head_in_of_filters rk x t1 _ H)) as Hyx.
    pose proof (sorted_head_le rk y x t1 S1
                  (head_in_of_filters rk y t2 _ (fun r => eq_sym (H r)))) as Hxy.
    assert (E : rk y = rk x) by (apply N.le_antisymm; assumption).
    pose proof (H (rk x)) as Hx. cbn [filter] in Hx. rewrite E, N.eqb_refl in Hx.
    injection Hx as <- _. f_equal.
    apply StronglySorted_inv in S1 as [S1 _]. apply StronglySorted_inv in S2 as [S2 _].
    apply IH; [exact S1|exact S2|].
    intros r. specialize (H r). cbn [filter] in H.
    destruct (rk x =? r); [injection H as H|]; exact H.
Qed.

(* a stable sort is determined by two facts: what it returns is sorted and keeps the items of
   each rank in their order *)
Lemma sort_level_unique : forall rk l l',
  StronglySorted (fun a b => rk a <= rk b) l' ->
  (forall r, filter (fun i => rk i =? r) l' = filter (fun i => rk i =? r) l) ->
  sort_level rk l = l'.
Proof.
  intros rk l l' S H. apply (sorted_filter_ext rk); [apply sort_level_sorted|exact S|].
  intros r. rewrite sort_level_stable. symmetry. apply H.
Qed.

Lemma sort_level_idem : forall rk l, sort_level rk (sort_level rk l) = sort_level rk l.
Proof. intros rk l. apply sort_level_unique; [apply sort_level_sorted|reflexivity]. Qed.

Lemma filter_regrouped : forall (p : item -> bool) l,
  filter p (non_foreign l ++ filter is_foreign l) =
  non_foreign (filter p l) ++ filter is_foreign (filter p l).
Proof. intros p l. unfold non_foreign. rewrite filter_app, !(filter_comm p). reflexivity. Qed.

Lemma sort_merge_idem : forall rk l,
  sort_level rk (merge_level (sort_level rk (merge_level l))) =
  sort_level rk (merge_level l).
Proof.
  (* the second merge finds distinct keys and only regroups, rank by rank, what the first
     merge had already grouped *)
  intros rk l. rewrite merge_level_distinct.
  - apply sort_level_unique; [apply sort_level_sorted|]. intros r.
    rewrite filter_regrouped, sort_level_stable, <- filter_regrouped, merge_level_regrouped.
    reflexivity.
  - apply (Permutation_NoDup (l := block_keys (merge_level l))).
    + unfold block_keys. apply Permutation_flat_map, Permutation_sym, sort_level_perm.
    + apply merge_level_distinct_keys.
Qed.

(* The nested passes are instances of two notions: an item function [P] that applies a level
   function [L] in every module body, bottom up, and a level function that only regroups: it is
   idempotent, and what it returns was there or is an extern block. *)
Definition deepens (P : item -> item) (L : list item -> list item) : Prop :=
  forall i, P i = match i with
                  | Module id (Some c) => Module id (Some (L (map P c)))
                  | _ => i
                  end.

Definition regroups (L : list item -> list item) : Prop :=
  (forall l, L (L l) = L l) /\
  (forall x l, In x (L l) -> In x l \/ is_foreign x = true).

Lemma merge_deepens : deepens merge_deep_item merge_level.
Proof. intros [k id|k u fs|id [c|]]; reflexivity. Qed.

Lemma sort_deepens : forall rk, deepens (sort_deep_item rk) (sort_level rk).
Proof. intros rk [k id|k u fs|id [c|]]; reflexivity. Qed.

Lemma deepens_local : forall P L, deepens P L -> module_local P.
Proof. intros P L H [k id|k u fs|id [c|]]; rewrite H; eauto. Qed.

Lemma sort_merge_level : forall rk l,
  sort_deep rk (merge_deep l) =
  sort_level rk (merge_level (map (fun i => sort_deep_item rk (merge_deep_item i)) l)).
Proof.
  intros rk l. unfold sort_deep, merge_deep.
  rewrite <- merge_level_map_commute, map_map by apply (deepens_local _ _ (sort_deepens rk)).
  reflexivity.
Qed.

Lemma sort_merge_deepens : forall rk,
  deepens (fun i => sort_deep_item rk (merge_deep_item i))
          (fun l => sort_level rk (merge_level l)).
Proof.
  intros rk [k id|k u fs|id [c|]]; try reflexivity.
  cbn [merge_deep_item sort_deep_item]. do 2 f_equal. apply sort_merge_level.
Qed.

Lemma merge_regroups : regroups merge_level.
Proof. split; [apply merge_level_idem|apply merge_level_In]. Qed.

Lemma sort_regroups : forall rk, regroups (sort_level rk).
Proof.
  intros rk. split; [apply sort_level_idem|].
  intros x l Hx. left. apply (Permutation_in _ (sort_level_perm rk l) Hx).
Qed.

Lemma sort_merge_regroups : forall rk, regroups (fun l => sort_level rk (merge_level l)).
Proof.
  intros rk. split; [apply sort_merge_idem|].
  intros x l Hx. apply merge_level_In, (Permutation_in _ (sort_level_perm rk _) Hx).
Qed.

Lemma deepens_level_idem : forall P L l, deepens P L -> regroups L ->
  (forall y, In y l -> P (P y) = P y) ->
  L (map P (L (map P l))) = L (map P l).
Proof.
  intros P L l HP [HL Hin] Hl.
  (* [P] fixes everything in [L (map P l)]: an item is there as the image of one of [l],
     or is an extern block *)
  rewrite (map_id_in P (L (map P l))); [apply HL|].
  intros x Hx. apply Hin in Hx as [Hx|Hx].
  - apply in_map_iff in Hx as [y [<- Hy]]. apply Hl, Hy.
  - apply (module_local_foreign P x (deepens_local P L HP) Hx).
Qed.

Lemma deepens_idem : forall P L, deepens P L -> regroups L ->
  forall l, L (map P (L (map P l))) = L (map P l).
Proof.
  intros P L HP HL l. apply deepens_level_idem; try assumption. intros i _.
  induction i as [k id|k u fs|id|id c IH] using item_ind'; rewrite !HP; try reflexivity.
  do 2 f_equal. apply deepens_level_idem; assumption.
Qed.

Definition inj_leaf (p : list N) (t : N * bool * N) : list N * leaf :=
  match t with (k, u, f) => (p, LForeign k u f) end.

Lemma leaves_split : forall p l,
  Permutation (flat_map (leaves_item p) l)
    (flat_map (leaves_item p) (non_foreign l) ++ map (inj_leaf p) (foreign_leaves l)).
Proof.
  intros p l. induction l as [|i t IH]; [constructor|].
  unfold non_foreign, foreign_leaves in *. destruct i as [k id|k u fs|id c];
    cbn [filter is_foreign negb flat_map]; rewrite <- ?app_assoc.
  - apply Permutation_app_head. exact IH.
  - rewrite map_app, map_map.
    eapply Permutation_trans; [apply Permutation_app_head; exact IH|].
    apply Permutation_app_swap_app.
  - apply Permutation_app_head. exact IH.
Qed.

Lemma merge_level_leaves : forall g p l, module_local g ->
  unsafety_consistent l = true ->
  Permutation (flat_map (leaves_item p) (merge_level (map g l)))
              (flat_map (leaves_item p) (map g l)).
Proof.
  intros g p l Hg Huc.
  eapply Permutation_trans; [apply leaves_split|].
  eapply Permutation_trans; [|apply Permutation_sym, leaves_split].
  rewrite merge_level_non_foreign. apply Permutation_app_head, Permutation_map.
  apply merge_level_multiset_functional. rewrite fblocks_map by exact Hg.
  apply consistent_functional, Huc.
Qed.

(* [ok] is what the level function [L] needs in order to keep the leaves of a level, [okI]
   says that [ok] holds of every module body in an item *)
Section DeepLeaves.
  Variables (P : item -> item) (L : list item -> list item)
            (okI : item -> bool) (ok : list item -> bool).
  Hypothesis HP : deepens P L.
  Hypothesis HokI : forall id c, okI (Module id (Some c)) = true ->
                                 ok c && forallb okI c = true.
  Hypothesis HL : forall p l, ok l = true ->
    Permutation (flat_map (leaves_item p) (L (map P l))) (flat_map (leaves_item p) (map P l)).

  Lemma deepens_level_leaves : forall l,
    (forall i, In i l -> okI i = true ->
       forall p, Permutation (leaves_item p (P i)) (leaves_item p i)) ->
    ok l && forallb okI l = true ->
    forall p, Permutation (flat_map (leaves_item p) (L (map P l))) (flat_map (leaves_item p) l).
  Proof.
    intros l HF H p. apply andb_prop in H as [Hok Hall].
    eapply Permutation_trans; [apply HL, Hok|].
    apply flat_map_map_perm. intros x Hx. apply HF; [exact Hx|].
    apply (proj1 (forallb_forall _ _) Hall), Hx.
  Qed.

  Lemma deepens_leaves : forall l p, ok l && forallb okI l = true ->
    Permutation (flat_map (leaves_item p) (L (map P l))) (flat_map (leaves_item p) l).
  Proof.
    intros l p H. apply deepens_level_leaves; [|exact H]. intros i _.
    induction i as [k id|k u fs|id|id c IH] using item_ind'; intros Hi q;
      rewrite (HP _); try apply Permutation_refl.
    cbn [leaves_item]. apply perm_skip, deepens_level_leaves; [exact IH|exact (HokI id c Hi)].
  Qed.
End DeepLeaves.

Lemma sort_deep_leaves_at : forall rk l p,
  Permutation (flat_map (leaves_item p) (sort_deep rk l)) (flat_map (leaves_item p) l).
Proof.
  intros rk l p.
  assert (Hall : forall c : list item, true && forallb (fun _ => true) c = true)
    by (intros c; apply forallb_forall; reflexivity).
  apply (deepens_leaves _ _ (fun _ => true) (fun _ => true) (sort_deepens rk)).
  - intros id c _. apply Hall.
  - intros q c _. apply Permutation_flat_map, sort_level_perm.
  - apply Hall.
Qed.

(* [ok] and [okI] stand for [unsafety_consistent] and [deep_consistent_item], or for
   anything that implies them level by level *)
Lemma passes_leaves_gen : forall (okI : item -> bool) (ok : list item -> bool),
  (forall id c, okI (Module id (Some c)) = true -> ok c && forallb okI c = true) ->
  (forall l, ok l = true -> unsafety_consistent l = true) ->
  forall rk m s l p, ok l && forallb okI l = true ->
  Permutation (flat_map (leaves_item p) (passes rk m s l)) (flat_map (leaves_item p) l).
Proof.
  intros okI ok HokI Hok rk m s l p Hl.
  assert (Hm : Permutation (flat_map (leaves_item p) (merge_deep l))
                           (flat_map (leaves_item p) l)).
  { apply (deepens_leaves _ _ okI ok merge_deepens HokI); [|exact Hl].
    intros q c Hc. apply merge_level_leaves; [apply (deepens_local _ _ merge_deepens)|].
    apply Hok, Hc. }
  destruct m, s; unfold passes.
  - eapply Permutation_trans; [apply sort_deep_leaves_at|exact Hm].
  - exact Hm.
  - apply sort_deep_leaves_at.
  - apply Permutation_refl.
Qed.

Definition ex_rk : item -> N :=
  rank_of [(14, 0); (0, 1); (2, 0); (9, 3); (4, 5); (7, 2); (3, 6)] 4.

Definition ex_tree : list item :=
  [Foreign 1 false [10];
   Plain 3 1;
   Module 6 (Some [Foreign 1 true [20]; Plain 9 2; Foreign 2 true []; Plain 0 3;
                   Foreign 1 true [21; 22];
                   Module 7 (Some [Plain 3 4; Foreign 3 false [30]; Plain 14 5;
                                   Foreign 3 false [31]])]);
   Foreign 1 false [11];
   Plain 14 6;
   Module 8 None].

Example deep_consistent_nonvacuous : deep_consistent ex_tree = true.
Proof. vm_compute. reflexivity. Qed.

Example passes_nonvacuous :
  passes ex_rk true true ex_tree =
  [Plain 14 6;
   Module 6 (Some [Plain 0 3;
                   Module 7 (Some [Plain 14 5; Foreign 3 false [30; 31]; Plain 3 4]);
                   Plain 9 2; Foreign 1 true [20; 21; 22]; Foreign 2 true []]);
   Module 8 None;
   Foreign 1 false [10; 11];
   Plain 3 1].
Proof. vm_compute. reflexivity. Qed.

Example passes_changes_nonvacuous : passes ex_rk true true ex_tree <> ex_tree.
Proof. vm_compute. discriminate. Qed.

Example merge_only_changes_nonvacuous : passes ex_rk true false ex_tree <> ex_tree.
Proof. vm_compute. discriminate. Qed.

Example sort_only_changes_nonvacuous : passes ex_rk false true ex_tree <> ex_tree.
Proof. vm_compute. discriminate. Qed.

Example unsafety_consistent_fails_nonvacuous :
  unsafety_consistent [Foreign 1 true [5]; Foreign 1 false [6]] = false.
Proof. vm_compute. reflexivity. Qed.

(* an empty block merges like any other: the later block of its key is absorbed into it, and
   the leaf 6 comes out under the empty block's unsafety *)
Example empty_block_nonvacuous :
  merge_level [Foreign 1 true []; Plain 0 0; Foreign 1 false [6]] =
  [Plain 0 0; Foreign 1 true [6]].
Proof. vm_compute. reflexivity. Qed.

(* blocks need not end up last after sorting: rank 5 < rank 6 *)
Example blocks_not_last_nonvacuous :
  passes ex_rk true true [Plain 3 1; Foreign 1 false [10]; Plain 3 2] =
  [Foreign 1 false [10]; Plain 3 1; Plain 3 2].
Proof. vm_compute. reflexivity. Qed.
