From Coq Require Import NArith List Bool Permutation Sorted.
From BG Require Import C18.Model C18.Proofs C18.Keyed.
Import ListNotations.
Open Scope N_scope.

(* items that are not extern blocks keep their identity and their order *)
Theorem merge_level_non_foreign : forall l,
  non_foreign (merge_level l) = non_foreign l.
Proof. exact Proofs.merge_level_non_foreign. Qed.
Print Assumptions merge_level_non_foreign.

(* every foreign item stays under the same key, none lost, none invented, and per key the
   foreign items keep their relative order *)
Theorem merge_level_keys_preserved : forall l k,
  map snd (filter (fun t => fst (fst t) =? k) (foreign_leaves (merge_level l))) =
  map snd (filter (fun t => fst (fst t) =? k) (foreign_leaves l)).
Proof.
  intros l k. change (per_key k (foreign_leaves (merge_level l)) = per_key k (foreign_leaves l)).
  rewrite <- !bleaves_fblocks, fblocks_merge_level.
  apply (absorb_all_per_key _ [] k). constructor.
Qed.
Print Assumptions merge_level_keys_preserved.

(* after merging there is at most one block per key *)
Theorem merge_level_distinct_keys : forall l, NoDup (block_keys (merge_level l)).
Proof. exact Proofs.merge_level_distinct_keys. Qed.
Print Assumptions merge_level_distinct_keys.

(* full statement: the multiset of (key, unsafety, foreign item) is unchanged.
   It needs blocks of equal key to agree on unsafety ... *)
Theorem merge_level_multiset_partial : forall l,
  unsafety_consistent l = true ->
  Permutation (foreign_leaves (merge_level l)) (foreign_leaves l).
Proof.
  intros l Huc. apply merge_level_multiset_functional, consistent_functional, Huc.
Qed.
Print Assumptions merge_level_multiset_partial.

(* ... because [absorb] compares the key alone and keeps the unsafety of the first block: two
   blocks of one key that differ in unsafety are joined *)
Theorem merge_level_multiset_refuted : exists l,
  ~ Permutation (foreign_leaves (merge_level l)) (foreign_leaves l).
Proof.
  exists [Foreign 1 true [5]; Foreign 1 false [6]]. intros HP.
  apply Permutation_sym, (Permutation_in (1, false, 6)) in HP; [|right; left; reflexivity].
  destruct HP as [H|[H|[]]]; discriminate H.
Qed.
Print Assumptions merge_level_multiset_refuted.

(* when the merge key itself distinguishes unsafe from safe blocks (keys of the form
   2*k + unsafety: the code compares attrs, abi and unsafety) the full statement holds with no
   hypothesis on the input beyond that encoding *)
Theorem merge_level_multiset_keyed : forall l,
  keyed l = true -> Permutation (foreign_leaves (merge_level l)) (foreign_leaves l).
Proof. exact Keyed.merge_level_multiset_keyed. Qed.
Print Assumptions merge_level_multiset_keyed.

Theorem passes_leaves_keyed : forall rk m s l,
  deep_keyed l = true -> Permutation (leaves (passes rk m s l)) (leaves l).
Proof. exact Keyed.passes_leaves_keyed. Qed.
Print Assumptions passes_leaves_keyed.

Theorem sort_level_perm : forall rk l, Permutation (sort_level rk l) l.
Proof. exact Proofs.sort_level_perm. Qed.
Print Assumptions sort_level_perm.

Theorem sort_level_sorted : forall rk l,
  StronglySorted (fun a b => rk a <= rk b) (sort_level rk l).
Proof. exact Proofs.sort_level_sorted. Qed.
Print Assumptions sort_level_sorted.

(* items of the same kind rank keep their relative order *)
Theorem sort_level_stable : forall rk l r,
  filter (fun i => rk i =? r) (sort_level rk l) = filter (fun i => rk i =? r) l.
Proof. exact Proofs.sort_level_stable. Qed.
Print Assumptions sort_level_stable.

(* the passes only regroup: per module path the same leaves, as a multiset *)
Theorem passes_leaves_partial : forall rk m s l,
  deep_consistent l = true ->
  Permutation (leaves (passes rk m s l)) (leaves l).
Proof.
  intros rk m s l.
  exact (passes_leaves_gen deep_consistent_item unsafety_consistent (fun _ _ H => H) (fun _ H => H)
           rk m s l []).
Qed.
Print Assumptions passes_leaves_partial.

(* sorting alone never needs the consistency hypothesis *)
Theorem sort_deep_leaves : forall rk l, Permutation (leaves (sort_deep rk l)) (leaves l).
Proof. intros rk l. apply sort_deep_leaves_at. Qed.
Print Assumptions sort_deep_leaves.

(* applying the passes to already processed bindings changes nothing *)
Theorem passes_idempotent : forall rk m s l,
  passes rk m s (passes rk m s l) = passes rk m s l.
Proof.
  intros rk m s l. destruct m, s; unfold passes.
  - rewrite !sort_merge_level. apply (deepens_idem _ _ (sort_merge_deepens rk) (sort_merge_regroups rk)).
  - apply (deepens_idem _ _ merge_deepens merge_regroups).
  - apply (deepens_idem _ _ (sort_deepens rk) (sort_regroups rk)).
  - reflexivity.
Qed.
Print Assumptions passes_idempotent.

Theorem passes_off : forall rk l, passes rk false false l = l.
Proof. reflexivity. Qed.
Print Assumptions passes_off.
