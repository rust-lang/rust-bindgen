(* C10 — blocklisted and opaque items: what C09 (traversal), C07 (Trace) and C02 (blob) say of them,
   and the derive rule of Model.v. *)
From Coq Require Import NArith List Bool.
From BG Require Import C07.Model C09.Model C09.Proofs C02.Model C02.Proofs C10.Model.
Import ListNotations.
Open Scope N_scope.

(* a blocklisted item is never part of what gets generated *)
Theorem blocklisted_never_defined : forall fuel g pred bl roots res n,
  allowlisted fuel g pred bl roots = Some res -> bl n = true -> ~ In n res.
Proof. exact C09.Proofs.block_beats_allow. Qed.
Print Assumptions blocklisted_never_defined.

(* the blocklist takes out the item alone: the result stays closed under the edges that are
   followed, except that a blocklisted target may be missing.  That an item referring to a
   blocklisted one is emitted is the hypothesis [In n res], not a conclusion *)
Theorem blocklisted_still_referenced : forall fuel g pred bl roots res,
  allowlisted fuel g pred bl roots = Some res ->
  forall n e, In n res -> In e (trace (get g n)) -> pred e = true ->
              In (fst e) res \/ bl (fst e) = true.
Proof. exact C09.Proofs.closure. Qed.
Print Assumptions blocklisted_still_referenced.

(* the Trace of an opaque composite has neither base nor field edges, so no traversal gets to
   them (the rules of C07 that read the fields of an opaque composite do so without an edge:
   C07.Proofs.irregular_float_opaque_struct) *)
Theorem opaque_exposes_nothing : forall c e,
  In e (trace_comp c true) ->
  snd e <> E_BaseMember /\ snd e <> E_Field.
Proof.
  intros c e H. unfold trace_comp in H. rewrite app_nil_r in H.
  repeat (apply in_app_or in H as [H|H]); apply in_map_iff in H as [x [<- _]];
    split; discriminate.
Qed.
Print Assumptions opaque_exposes_nothing.

(* the blob emitted for an opaque type has exactly the C size and alignment (whenever the
   alignment divides the size, which holds for every complete C type) *)
Theorem opaque_blob_exact : forall s a, 0 < a -> s mod a = 0 ->
  e_fields (emit_opaque s a) = [(s, a)] /\ e_members (emit_opaque s a) = 0%nat /\ e_accessors (emit_opaque s a) = 0%nat.
Proof.
  intros s a Ha Hm. unfold emit_opaque. cbn [e_fields e_members e_accessors].
  destruct (C02.Proofs.blob_exact s a Ha Hm) as [-> ->]. repeat split; reflexivity.
Qed.
Print Assumptions opaque_blob_exact.

(* no trait is derived through a blocklisted type unless the user vouches for it *)
Theorem no_derive_through_blocklisted : forall opaque ru rest,
  derive_head false None opaque ru rest = No /\
  forall v, derive_head false (Some v) opaque ru rest = v.
Proof. intros. split; reflexivity. Qed.
Print Assumptions no_derive_through_blocklisted.

(* an opaque type derives from its layout alone, whatever its hidden members are *)
Theorem opaque_derive_ignores_members : forall rest rest',
  derive_head true None true false rest = derive_head true None true false rest'.
Proof. reflexivity. Qed.
Print Assumptions opaque_derive_ignores_members.

(* a by-value reference to an opaque type gets the answer of the type it refers to: for the
   reference [head_union] takes the kind of the target, so both sides are [no_derive cdu unt target] *)
Theorem opaque_reference_agrees : forall cdu unt target rest rest',
  derive_head true None true (no_derive cdu unt (head_union true false target)) rest =
  derive_head true None true (no_derive cdu unt (head_union false target target)) rest'.
Proof. reflexivity. Qed.
Print Assumptions opaque_reference_agrees.

(* a union test that looks at the type's own kind only ([head_union_old]) does not give this: the
   reference to an opaque union says Yes, the union No *)
Theorem opaque_reference_old_refuted : exists cdu unt target rest rest',
  derive_head true None true (no_derive cdu unt (head_union_old true false target)) rest = Yes /\
  derive_head true None true (no_derive cdu unt (head_union_old false target target)) rest' = No.
Proof. exists false, true, true, Yes, Yes. split; reflexivity. Qed.
Print Assumptions opaque_reference_old_refuted.
