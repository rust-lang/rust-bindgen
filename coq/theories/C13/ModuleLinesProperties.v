From Coq Require Import List String Bool Permutation.
From BG Require Import C13.ModuleLines C13.ModuleLinesProofs.
Import ListNotations.
Open Scope string_scope.

(* whatever order the hash map is iterated in when the flags are printed, the configuration rebuilt from the flags
   gives every module the same lines in the same order *)
Theorem module_lines_roundtrip : forall calls order modname,
  Permutation order (keys (build calls)) ->
  lines_of (build (print order (build calls))) modname = lines_of (build calls) modname.
Proof. intros calls order modname. apply print_build_roundtrip, keys_fold_nodup, NoDup_nil. Qed.
Print Assumptions module_lines_roundtrip.

(* the lines of a module are the lines of the calls that name it, in call order *)
Theorem lines_of_build : forall calls modname,
  lines_of (build calls) modname = map snd (filter (fun c => String.eqb (fst c) modname) calls).
Proof. intros calls modname. exact (lines_of_fold calls [] modname). Qed.
Print Assumptions lines_of_build.

(* printing the pairs in another order than [print] gives them (here: reversed) does not round-trip: the lines of
   one module change order *)
Theorem sorted_print_refuted : exists calls modname,
  let sort := fun l : list (string * string) => rev l in     (* any re-ordering will do: reversal is the smallest *)
  lines_of (build (print_sorted sort (keys (build calls)) (build calls))) modname <> lines_of (build calls) modname.
Proof.
  exists [("root", "a"); ("root", "b")], "root".
  vm_compute. intro H. discriminate H.
Qed.
Print Assumptions sorted_print_refuted.

Example module_lines_example :
  let calls := [("root", "pub type Zz = u8;"); ("root::ns", "use super::*;"); ("root", "pub type Aa = u16;")] in
  lines_of (build calls) "root" = ["pub type Zz = u8;"; "pub type Aa = u16;"] /\
  print ["root::ns"; "root"] (build calls) = [("root::ns", "use super::*;"); ("root", "pub type Zz = u8;"); ("root", "pub type Aa = u16;")].
Proof. vm_compute. repeat split; reflexivity. Qed.
