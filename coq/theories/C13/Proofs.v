(* C13 — the flag round trip: parsing what was printed gives back every table-driven
   option.  Options are functions and are only ever compared pointwise, so functional
   extensionality is not needed. *)
From Coq Require Import NArith PeanoNat List Bool.
From BG Require Import C13.Model.
Import ListNotations.
Open Scope N_scope.

Lemma NoDup_map_inj {A B} (f : A -> B) l x y :
  NoDup (map f l) -> In x l -> In y l -> f x = f y -> x = y.
Proof.
  induction l as [|a l IH]; cbn [map In]; intros Hnd Hx Hy E; [contradiction|].
  inversion Hnd as [|? ? Hn Hnd']; subst.
  destruct Hx as [->|Hx], Hy as [->|Hy]; auto; exfalso; apply Hn;
    [rewrite E|rewrite <- E]; apply in_map; assumption.
Qed.

Lemma NoDup_key_split {A B} (key : A -> B) l a :
  NoDup (map key l) -> In a l ->
  exists l1 l2, l = l1 ++ a :: l2 /\ forall b, In b l1 \/ In b l2 -> key b <> key a.
Proof.
  intros Hnd Hin. destruct (in_split _ _ Hin) as (l1 & l2 & ->). exists l1, l2.
  split; [reflexivity|]. rewrite map_app in Hnd. cbn [map] in Hnd.
  apply NoDup_remove_2 in Hnd. rewrite <- map_app in Hnd.
  intros b Hb E. apply Hnd. rewrite <- E. apply in_map, in_or_app, Hb.
Qed.

Lemma filter_const {A} (p : A -> bool) b l :
  (forall x, In x l -> p x = b) -> filter p l = if b then l else [].
Proof.
  induction l as [|x l IH]; intros H; [destruct b; reflexivity|].
  cbn [filter]. rewrite (H x (or_introl eq_refl)), IH by (intros y Hy; apply H; right; exact Hy).
  destruct b; reflexivity.
Qed.

Lemma filter_flat_map {A B} (p : B -> bool) (h : A -> list B) l :
  filter p (flat_map h l) = flat_map (fun a => filter p (h a)) l.
Proof.
  induction l as [|a l IH]; [reflexivity|]. cbn [flat_map]. rewrite filter_app, IH. reflexivity.
Qed.

Lemma flat_map_nil {A B} (h : A -> list B) l : (forall a, In a l -> h a = []) -> flat_map h l = [].
Proof.
  induction l as [|a l IH]; intros H; [reflexivity|].
  cbn [flat_map]. rewrite (H a (or_introl eq_refl)). apply IH. intros b Hb. apply H. right. exact Hb.
Qed.

Lemma flat_map_only {A B K} (key : A -> K) (h : A -> list B) l a :
  NoDup (map key l) -> In a l -> (forall b, In b l -> key b <> key a -> h b = []) ->
  flat_map h l = h a.
Proof.
  intros Hnd Hin H. destruct (NoDup_key_split key l a Hnd Hin) as (l1 & l2 & -> & Hne).
  rewrite flat_map_app. cbn [flat_map].
  rewrite (flat_map_nil h l1), (flat_map_nil h l2), app_nil_r; [reflexivity|..];
    intros b Hb; (apply H; [apply in_or_app; cbn [In]|apply Hne]); auto.
Qed.

Lemma str_eqb_eq a b : str_eqb a b = true <-> a = b.
Proof.
  revert b. induction a as [|x a IH]; intros [|y b]; cbn [str_eqb]; split; intros H;
    try reflexivity; try discriminate.
  - apply andb_prop in H. destruct H as [Hxy Hab].
    apply N.eqb_eq in Hxy. apply IH in Hab. subst. reflexivity.
  - injection H as -> ->. rewrite N.eqb_refl. apply IH. reflexivity.
Qed.

Lemma str_eqb_refl a : str_eqb a a = true.
Proof. apply str_eqb_eq. reflexivity. Qed.

Lemma str_eqb_neq a b : str_eqb a b = false <-> a <> b.
Proof.
  split; intros H.
  - intros E. apply str_eqb_eq in E. congruence.
  - apply not_true_is_false. intros E. apply H, str_eqb_eq, E.
Qed.

(* [nodup_str] and [nodup_N] are the instances [nd] of this at [str_eqb] and [N.eqb] *)
Lemma nodupb_NoDup {A} (eqb : A -> A -> bool) (nd : list A -> bool) :
  (forall x, eqb x x = true) ->
  (forall x t, nd (x :: t) = negb (existsb (eqb x) t) && nd t) ->
  forall l, nd l = true -> NoDup l.
Proof.
  intros Hrefl Hnd. induction l as [|x l IH]; intros H; constructor;
    rewrite Hnd in H; apply andb_prop in H; destruct H as [Hx Hl]; [|exact (IH Hl)].
  intros Hin. apply negb_true_iff in Hx.
  rewrite (proj2 (existsb_exists _ _)) in Hx; [discriminate|]. exists x. auto.
Qed.

Lemma nodup_str_NoDup l : nodup_str l = true -> NoDup l.
Proof. apply (nodupb_NoDup str_eqb); [exact str_eqb_refl|reflexivity]. Qed.

Lemma nodup_N_NoDup l : nodup_N l = true -> NoDup l.
Proof. apply (nodupb_NoDup N.eqb); [exact N.eqb_refl|reflexivity]. Qed.

(* [nodup_str] with the lengths compared first.  The flags of the table share "--" and often
   more, so [str_eqb] walks a common prefix before it tells two of them apart, while their
   lengths mostly differ at once: C13/Shipped.v evaluates [wf] in this form, which is much quicker to check *)
Definition with_len (s : str) : N * str := (N.of_nat (length s), s).

Fixpoint nodup_len (l : list (N * str)) : bool :=
  match l with
  | [] => true
  | x :: t =>
      negb (existsb (fun y => (fst x =? fst y) && str_eqb (snd x) (snd y)) t) && nodup_len t
  end.

Lemma nodup_len_ok l : nodup_len (map with_len l) = nodup_str l.
Proof.
  induction l as [|x l IH]; [reflexivity|]. cbn [map nodup_len nodup_str]. rewrite IH.
  f_equal. f_equal. clear IH. induction l as [|y l IH]; [reflexivity|].
  cbn [map existsb]. rewrite IH. f_equal. cbn [with_len fst snd].
  destruct (str_eqb x y) eqn:E; [|apply andb_false_r].
  apply str_eqb_eq in E. subst y. rewrite N.eqb_refl. reflexivity.
Qed.

Lemma find_crow_spec cs s c : find_crow cs s = Some c -> In c cs /\ c_long c = s.
Proof.
  induction cs as [|c0 cs IH]; cbn [find_crow]; [discriminate|].
  destruct (str_eqb (c_long c0) s) eqn:E.
  - intros [= <-]. split; [left; reflexivity|apply str_eqb_eq, E].
  - intros H. destruct (IH H). auto using in_cons.
Qed.

Lemma wf_inv rows cs : wf rows cs = true ->
  forallb (row_ok cs) rows = true /\ NoDup (map p_flag rows) /\
  NoDup (map p_field rows) /\ NoDup (map c_long cs).
Proof.
  unfold wf. intros H.
  apply andb_prop in H. destruct H as [H H4].
  apply andb_prop in H. destruct H as [H H3].
  apply andb_prop in H. destruct H as [H1 H2].
  auto using nodup_str_NoDup, nodup_N_NoDup.
Qed.

Lemma defaults_at rows r :
  NoDup (map p_field rows) -> In r rows -> defaults rows (p_field r) = default_of (p_kind r).
Proof.
  intros Hnd Hin. unfold defaults.
  destruct (find (fun r0 => p_field r0 =? p_field r) rows) as [r0|] eqn:E.
  - apply find_some in E. destruct E as [Hin0 Heq]. apply N.eqb_eq in Heq.
    rewrite (NoDup_map_inj _ _ _ _ Hnd Hin0 Hin Heq). reflexivity.
  - apply (find_none _ _ E) in Hin. cbn beta in Hin. rewrite N.eqb_refl in Hin. discriminate.
Qed.

Definition arity_of (k : pkind) : carity :=
  match k with PFlag | PNegFlag => CBool | POpt => COpt | PMulti => CVec end.
Definition effect_of (k : pkind) : effect :=
  match k with PFlag => SetBool true | PNegFlag => SetBool false | POpt => SetSome | PMulti => Push end.

Lemma row_matches_inv r c : row_matches r c = true ->
  p_flag r = c_long c /\ p_field r = c_field c /\
  c_arity c = arity_of (p_kind r) /\ c_effect c = effect_of (p_kind r).
Proof.
  unfold row_matches. intros H.
  apply andb_prop in H. destruct H as [H Hk]. apply andb_prop in H. destruct H as [Hs Hf].
  apply str_eqb_eq in Hs. apply N.eqb_eq in Hf. split; [exact Hs|]. split; [exact Hf|].
  destruct (p_kind r); destruct (c_arity c); try discriminate Hk;
    destruct (c_effect c) as [[|]| |]; try discriminate Hk; split; reflexivity.
Qed.

Lemma row_ok_inv cs r : row_ok cs r = true ->
  exists c, find_crow cs (p_flag r) = Some c /\ row_matches r c = true.
Proof.
  unfold row_ok. destruct (find_crow cs (p_flag r)) as [c|]; [|discriminate].
  intros H. apply andb_prop in H. destruct H as [H _].
  apply andb_prop in H. destruct H as [Hm _]. eauto.
Qed.

Lemma value_eqb_bool v b : value_eqb v (VBool b) = true -> v = VBool b.
Proof.
  destruct v as [b'|[s|]|l]; try discriminate. intros H. apply Bool.eqb_prop in H. congruence.
Qed.

Lemma upd_same o f v : upd o f v f = v.
Proof. unfold upd. rewrite N.eqb_refl. reflexivity. Qed.

Lemma upd_other o f g v : f <> g -> upd o f v g = o g.
Proof. intros H. unfold upd. destruct (N.eqb_spec g f); congruence. Qed.

(* how writes that are not aimed at [f] can still change it: a secondary effect sets a constant
   boolean there *)
Definition kept_or_set (Q : bool -> Prop) (f : N) (a a' : options) : Prop :=
  a' f = a f \/ exists b, Q b /\ a' f = VBool b.

Lemma fold_kept_or_set {X} (g : options -> X -> options) Q f l a :
  (forall x, In x l -> forall a', kept_or_set Q f a' (g a' x)) ->
  kept_or_set Q f a (fold_left g l a).
Proof.
  revert a. induction l as [|x l IH]; intros a H; [left; reflexivity|]. cbn [fold_left].
  destruct (IH (g a x) (fun y Hy => H y (or_intror Hy))) as [E|S]; [|right; exact S].
  unfold kept_or_set. rewrite E. apply H. left. reflexivity.
Qed.

Lemma set_also_fold f l o1 :
  kept_or_set (fun b => In (f, b) l) f o1 (fold_left set_also l o1).
Proof.
  apply fold_kept_or_set. intros [g b] Hin a. unfold set_also. cbn [fst snd].
  destruct (N.eq_dec g f) as [->|E].
  - right. exists b. rewrite upd_same. auto.
  - left. apply upd_other, E.
Qed.

Lemma fold_push c l o1 l0 :
  c_effect c = Push -> o1 (c_field c) = VList l0 ->
  fold_left apply_occ (map (OVal c) l) o1 (c_field c) = VList (l0 ++ l).
Proof.
  intros He. revert o1 l0. induction l as [|v l IH]; intros o1 l0 H0; cbn [map fold_left].
  - rewrite app_nil_r. exact H0.
  - rewrite (IH _ (l0 ++ [v])), <- app_assoc; [reflexivity|].
    cbn [apply_occ]. rewrite He, H0. apply upd_same.
Qed.

(* the test by which [apply_all] picks the occurrences of one clap argument *)
Definition sel (c : crow) (x : occ) : bool := str_eqb (c_long (occ_crow x)) (c_long c).

Lemma apply_all_flat cs occs a :
  apply_all cs occs a = fold_left apply_occ (flat_map (fun c => filter (sel c) occs) cs) a.
Proof.
  unfold apply_all. revert a. induction cs as [|c cs IH]; intros a; [reflexivity|].
  cbn [flat_map fold_left]. rewrite fold_left_app. apply IH.
Qed.

Lemma count_opt_filter c l : count_opt c l = count_opt c (filter (sel c) l).
Proof.
  induction l as [|[c'|c' v] l IH]; cbn [filter count_opt]; [reflexivity|..];
    unfold sel at 1; cbn [occ_crow]; destruct (str_eqb (c_long c') (c_long c)) eqn:E;
    cbn [count_opt]; try exact IH.
  - rewrite IH. reflexivity.
  - apply str_eqb_neq in E. rewrite (proj2 (str_eqb_neq _ _)) by congruence. exact IH.
Qed.

Definition occ_args (x : occ) : list str :=
  match x with OFlag c => [c_long c] | OVal c v => [c_long c; v] end.

Section Tables.
Variable cs : list crow.
Variable o : options.

(* the occurrences clap produces for what one row prints *)
Definition occs_of_row (r : prow) : list occ :=
  match find_crow cs (p_flag r) with
  | None => []
  | Some c =>
    match p_kind r, o (p_field r) with
    | PFlag, VBool true => [OFlag c]
    | PNegFlag, VBool false => [OFlag c]
    | POpt, VOpt (Some v) => [OVal c v]
    | PMulti, VList l => map (OVal c) l
    | _, _ => []
    end
  end.

Definition occ_valid (x : occ) : Prop :=
  find_crow cs (c_long (occ_crow x)) = Some (occ_crow x) /\
  match x with
  | OFlag c => c_arity c = CBool
  | OVal c v => c_arity c <> CBool /\ starts_with_dash v = false
  end.

Lemma clap_args l : Forall occ_valid l ->
  forall fuel, (length (flat_map occ_args l) <= fuel)%nat ->
  clap cs fuel (flat_map occ_args l) = Some l.
Proof.
  induction 1 as [|x l [Hf Hx] _ IH]; intros fuel Hlen; [destruct fuel; reflexivity|].
  destruct x as [c|c v]; cbn [flat_map occ_args app length occ_crow] in *;
    (destruct fuel as [|fuel]; [inversion Hlen|]); cbn [clap]; rewrite Hf.
  - rewrite Hx, IH by apply le_S_n, Hlen. reflexivity.
  - destruct Hx as [Ha Hv]. destruct (c_arity c); [contradiction| |];
      rewrite Hv, IH by apply Nat.lt_le_incl, le_S_n, Hlen; reflexivity.
Qed.

(* What a well-formed row with a representable value prints and what clap makes of it, in
   the four shapes every later proof distinguishes. *)
Inductive row_view (r : prow) (c : crow) : list str -> list occ -> Prop :=
| RVnone : o (p_field r) = default_of (p_kind r) -> row_view r c [] []
| RVflag b : o (p_field r) = VBool b -> c_arity c = CBool -> c_effect c = SetBool b ->
    row_view r c [p_flag r] [OFlag c]
| RVopt v : o (p_field r) = VOpt (Some v) -> starts_with_dash v = false ->
    c_arity c = COpt -> c_effect c = SetSome -> row_view r c [p_flag r; v] [OVal c v]
| RVmulti l : p_kind r = PMulti -> o (p_field r) = VList l ->
    forallb (fun s => negb (starts_with_dash s)) l = true ->
    c_arity c = CVec -> c_effect c = Push ->
    row_view r c (flat_map (fun v => [p_flag r; v]) l) (map (OVal c) l).

(* everything the round trip knows about one row of a well-formed table under a
   representable [o] *)
Record row_facts (r : prow) (c : crow) : Prop := {
  rf_find : find_crow cs (p_flag r) = Some c;
  rf_field : p_field r = c_field c;
  rf_view : row_view r c (print_row r o) (occs_of_row r);
  rf_also : forall x f b, In x (occs_of_row r) -> In (f, b) (c_also c) -> o f = VBool b }.

Definition good_rows (rows : list prow) : Prop :=
  forall r, In r rows -> exists c, row_facts r c.

Lemma good_rows_intro rows :
  forallb (row_ok cs) rows = true -> representable rows cs o = true -> good_rows rows.
Proof.
  intros Hok Hrep r Hr.
  destruct (row_ok_inv _ _ (proj1 (forallb_forall _ _) Hok r Hr)) as (c & Hf & Hm).
  apply (proj1 (forallb_forall _ _)) with (x := r) in Hrep; [|exact Hr].
  apply andb_prop in Hrep. destruct Hrep as [Hv Ha].
  destruct (row_matches_inv _ _ Hm) as (_ & Hfd & Har & He).
  assert (V : row_view r c (print_row r o) (occs_of_row r)).
  { unfold print_row, occs_of_row. rewrite Hf.
    destruct (p_kind r) eqn:Hk; cbn [arity_of effect_of] in Har, He;
      destruct (o (p_field r)) as [[|]|[v|]|l] eqn:Ho; try discriminate Hv;
      try (apply RVnone; rewrite Ho, Hk; reflexivity).
    - exact (RVflag r c true Ho Har He).
    - exact (RVflag r c false Ho Har He).
    - exact (RVopt r c v Ho (proj1 (negb_true_iff _) Hv) Har He).
    - exact (RVmulti r c l Hk Ho Hv Har He). }
  exists c. split; [exact Hf|exact Hfd|exact V|].
  intros x f b Hx Hin. apply value_eqb_bool. unfold also_ok in Ha. rewrite Hf in Ha.
  destruct V as [| | |[|v l]]; try destruct Hx;
    exact (proj1 (forallb_forall _ _) Ha (f, b) Hin).
Qed.

Lemma occs_crow r c x : row_facts r c -> In x (occs_of_row r) -> occ_crow x = c.
Proof.
  intros F. destruct (rf_view r c F) as [| | |l]; cbn [In]; try (intros [<-|[]]; reflexivity).
  - intros [].
  - intros Hx. apply in_map_iff in Hx. destruct Hx as (v & <- & _). reflexivity.
Qed.

Lemma occs_long r c x : row_facts r c -> In x (occs_of_row r) -> c_long (occ_crow x) = p_flag r.
Proof.
  intros F Hx. rewrite (occs_crow r c x F Hx). apply (find_crow_spec cs), (rf_find r c F).
Qed.

Lemma print_row_args r c :
  row_facts r c -> print_row r o = flat_map occ_args (occs_of_row r).
Proof.
  intros F. destruct (find_crow_spec _ _ _ (rf_find r c F)) as [_ Hl].
  destruct (rf_view r c F) as [| | |l]; cbn [flat_map occ_args app]; rewrite ?Hl; try reflexivity.
  clear - Hl. induction l as [|v l IH]; [reflexivity|].
  cbn [flat_map map app occ_args]. rewrite Hl, IH. reflexivity.
Qed.

Lemma occs_valid r c x : row_facts r c -> In x (occs_of_row r) -> occ_valid x.
Proof.
  intros F Hx. split.
  - rewrite (occs_long r c x F Hx), (occs_crow r c x F Hx). exact (rf_find r c F).
  - destruct (rf_view r c F) as [|b _ Ha|v _ Hd Ha|l _ _ Hd Ha]; cbn [In] in Hx.
    + destruct Hx.
    + destruct Hx as [<-|[]]. exact Ha.
    + destruct Hx as [<-|[]]. split; [congruence|exact Hd].
    + apply in_map_iff in Hx. destruct Hx as (v & <- & Hv). split; [congruence|].
      apply negb_true_iff. exact (proj1 (forallb_forall _ _) Hd v Hv).
Qed.

Lemma print_args rows :
  good_rows rows -> print rows o = flat_map occ_args (flat_map occs_of_row rows).
Proof.
  unfold print. induction rows as [|r rows IH]; intros G; [reflexivity|].
  destruct (G r (or_introl eq_refl)) as (c & F).
  cbn [flat_map]. rewrite flat_map_app, (print_row_args r c F), IH; [reflexivity|].
  intros r' Hr'. apply G. right. exact Hr'.
Qed.

Lemma clap_print rows fuel :
  good_rows rows -> (length (print rows o) <= fuel)%nat ->
  clap cs fuel (print rows o) = Some (flat_map occs_of_row rows).
Proof.
  intros G. rewrite (print_args rows G). apply clap_args. apply Forall_forall. intros x Hx.
  apply in_flat_map in Hx. destruct Hx as (r & Hr & Hx). destruct (G r Hr) as (c & F).
  exact (occs_valid r c x F Hx).
Qed.

Lemma filter_rows_own c rows r :
  good_rows rows -> NoDup (map p_flag rows) -> In r rows -> p_flag r = c_long c ->
  filter (sel c) (flat_map occs_of_row rows) = occs_of_row r.
Proof.
  intros G Hflags Hin Hfl.
  assert (Hs : forall r', In r' rows -> filter (sel c) (occs_of_row r') =
                 if str_eqb (p_flag r') (p_flag r) then occs_of_row r' else []).
  { intros r' Hr'. apply filter_const. intros x Hx. destruct (G r' Hr') as (c' & F').
    unfold sel. rewrite (occs_long r' c' x F' Hx), Hfl. reflexivity. }
  rewrite filter_flat_map, (flat_map_only p_flag _ rows r Hflags Hin).
  - rewrite (Hs r Hin), str_eqb_refl. reflexivity.
  - intros r' Hr' Hne. rewrite (Hs r' Hr'), (proj2 (str_eqb_neq _ _) Hne). reflexivity.
Qed.

Lemma no_dup_single_print rows :
  good_rows rows -> NoDup (map p_flag rows) ->
  no_dup_single (flat_map occs_of_row rows) = true.
Proof.
  intros G Hflags. apply forallb_forall. intros [c|c v] Hx; [reflexivity|].
  destruct (c_arity c) eqn:Ha; try reflexivity. apply Nat.leb_le.
  apply in_flat_map in Hx. destruct Hx as (r & Hr & Hx). destruct (G r Hr) as (c0 & F).
  pose proof (occs_crow r c0 _ F Hx) as Hc. cbn [occ_crow] in Hc. subst c0.
  rewrite count_opt_filter, (filter_rows_own c rows r G Hflags Hr (eq_sym (occs_long r c _ F Hx))).
  destruct (rf_view r c F) as [|b|v' _ _ _|l _ _ _ Ha' _]; cbn [count_opt]; auto.
  - destruct (str_eqb _ _); auto.
  - congruence.
Qed.

(* an occurrence of another row can still write to [f], through [c_also]; [representable]
   makes it write the boolean [o] has there *)
Definition harmless (f : N) (x : occ) : Prop :=
  forall a, kept_or_set (fun b => o f = VBool b) f a (apply_occ a x).

Lemma occ_other f r c x :
  row_facts r c -> In x (occs_of_row r) -> p_field r <> f -> harmless f x.
Proof.
  intros F Hx Hne a. rewrite (rf_field _ _ F) in Hne. pose proof (occs_crow r c x F Hx) as Hc.
  destruct x as [c'|c' v]; cbn [occ_crow] in Hc; subst c'; unfold kept_or_set; cbn [apply_occ].
  - edestruct set_also_fold as [H|(b & Hin & H)]; rewrite H.
    + left. destruct (c_effect c); try reflexivity. apply upd_other, Hne.
    + right. exists b. split; [exact (rf_also _ _ F _ f b Hx Hin)|reflexivity].
  - left. destruct (c_effect c); try reflexivity; [|destruct (a (c_field c))];
      apply upd_other, Hne.
Qed.

(* when a row's own occurrences are applied its field still holds the default, or already
   the boolean of [o] if the secondary effect of an earlier flag has set it *)
Lemma own_block r c a0 a :
  row_facts r c -> a0 (p_field r) = default_of (p_kind r) ->
  kept_or_set (fun b => o (p_field r) = VBool b) (p_field r) a0 a ->
  fold_left apply_occ (occs_of_row r) a (p_field r) = o (p_field r).
Proof.
  intros F Ha0 Ia. pose proof (rf_also _ _ F) as Hal. pose proof (rf_field _ _ F) as Hfd.
  destruct (rf_view _ _ F) as [Ho|b Ho _ He|v Ho _ _ He|l Hk Ho _ _ He]; cbn [fold_left apply_occ].
  - destruct Ia as [->|(b & -> & ->)]; [congruence|reflexivity].
  - rewrite He, Ho.
    edestruct set_also_fold as [H|(b' & Hin & H)]; rewrite H.
    + rewrite Hfd. apply upd_same.
    + rewrite <- Ho. symmetry. apply (Hal _ _ _ (or_introl eq_refl) Hin).
  - rewrite He, Ho, Hfd. apply upd_same.
  - rewrite Ho, Hfd. apply (fold_push c l a []); [exact He|]. rewrite <- Hfd.
    destruct Ia as [->|(b & Hb & _)]; [rewrite Ha0, Hk; reflexivity|congruence].
Qed.

Lemma apply_all_field rows r a :
  good_rows rows ->
  NoDup (map p_flag rows) -> NoDup (map p_field rows) -> NoDup (map c_long cs) ->
  In r rows -> a (p_field r) = default_of (p_kind r) ->
  apply_all cs (flat_map occs_of_row rows) a (p_field r) = o (p_field r).
Proof.
  intros G Hflags Hfields Hlongs Hr Ha. destruct (G r Hr) as (c & F).
  destruct (find_crow_spec _ _ _ (rf_find _ _ F)) as [Hc Hlong].
  assert (Hoth : forall cs', (forall c', In c' cs' -> c_long c' <> c_long c) ->
            forall x, In x (flat_map (fun c' => filter (sel c') (flat_map occs_of_row rows)) cs') ->
                      harmless (p_field r) x).
  { intros cs' Hne x Hx. apply in_flat_map in Hx. destruct Hx as (c' & Hc' & Hx).
    apply filter_In in Hx. destruct Hx as [Hx Hs]. apply str_eqb_eq in Hs.
    apply in_flat_map in Hx. destruct Hx as (r' & Hr' & Hx). destruct (G r' Hr') as (c0 & F').
    apply (occ_other _ r' c0); auto. intros E.
    apply (Hne c' Hc'). rewrite <- Hs, (occs_long r' c0 x F' Hx), Hlong.
    f_equal. apply (NoDup_map_inj p_field rows); assumption. }
  (* [cs] splits around the row's own clap argument: what is scheduled before and after it
     is harmless, the row's own occurrences sit together in between *)
  destruct (NoDup_key_split c_long cs c Hlongs Hc) as (cs1 & cs2 & Ecs & Hne).
  rewrite apply_all_flat, Ecs, flat_map_app. cbn [flat_map].
  rewrite (filter_rows_own c rows r G Hflags Hr (eq_sym Hlong)), !fold_left_app.
  pose proof (fold_kept_or_set apply_occ _ _ _ a (Hoth cs1 (fun c' H => Hne c' (or_introl H)))) as H1.
  apply (own_block r c a _ F Ha) in H1.
  edestruct (fold_kept_or_set apply_occ) as [H2|(b & Hb & H2)];
    [exact (Hoth cs2 (fun c' H => Hne c' (or_intror H)))|..];
    rewrite H2; congruence.
Qed.

End Tables.

Lemma parse_print : forall rows cs o,
  wf rows cs = true -> representable rows cs o = true ->
  parse rows cs (print rows o) =
  Some (apply_all cs (flat_map (occs_of_row cs o) rows) (defaults rows)).
Proof.
  intros rows cs o Hwf Hrep.
  destruct (wf_inv _ _ Hwf) as (Hok & Hndf & _ & _).
  pose proof (good_rows_intro cs o rows Hok Hrep) as G.
  unfold parse. rewrite (clap_print cs o rows _ G) by apply Nat.le_succ_diag_r.
  rewrite (no_dup_single_print cs o rows G Hndf). reflexivity.
Qed.

Lemma roundtrip : forall rows cs o,
  wf rows cs = true -> representable rows cs o = true ->
  exists o', parse rows cs (print rows o) = Some o' /\ agree_on rows o o'.
Proof.
  intros rows cs o Hwf Hrep. eexists. split; [apply parse_print; assumption|].
  destruct (wf_inv _ _ Hwf) as (Hok & Hndf & Hndn & Hndc).
  intros r Hin. apply apply_all_field; try assumption; [apply good_rows_intro|apply defaults_at]; assumption.
Qed.

Lemma print_agree rows o o' : agree_on rows o o' -> print rows o' = print rows o.
Proof.
  intros H. unfold print. rewrite !flat_map_concat_map. f_equal. apply map_ext_in.
  intros r Hr. unfold print_row. rewrite (H r Hr). reflexivity.
Qed.

Lemma print_stable : forall rows cs o o',
  wf rows cs = true -> representable rows cs o = true ->
  parse rows cs (print rows o) = Some o' -> print rows o' = print rows o.
Proof.
  intros rows cs o o' Hwf Hrep Hp.
  destruct (roundtrip rows cs o Hwf Hrep) as (o'' & Hp' & Hag).
  rewrite Hp in Hp'. injection Hp' as <-. apply print_agree. exact Hag.
Qed.

Lemma apply_all_nil cs o : apply_all cs [] o = o.
Proof. revert o. induction cs as [|c cs IH]; intros o; [reflexivity|apply IH]. Qed.

Lemma print_row_default r o : o (p_field r) = default_of (p_kind r) -> print_row r o = [].
Proof. intros H. unfold print_row. rewrite H. destruct (p_kind r); reflexivity. Qed.

(* without a hypothesis on [rows] the second half is false when two print rows share a
   field (see [defaults_agree_counterexample]).  With distinct fields (a conjunct of
   [wf]) it holds. *)
Lemma defaults_agree : forall rows cs,
  nodup_N (map p_field rows) = true ->
  parse rows cs [] = Some (defaults rows) /\ print rows (defaults rows) = [].
Proof.
  intros rows cs Hnd. split.
  - unfold parse. cbn [length clap no_dup_single forallb]. rewrite apply_all_nil. reflexivity.
  - apply flat_map_nil. intros r Hr. apply print_row_default, defaults_at; auto using nodup_N_NoDup.
Qed.

Definition defaults_agree_fixed := defaults_agree.

Lemma defaults_agree_wf : forall rows cs,
  wf rows cs = true ->
  parse rows cs [] = Some (defaults rows) /\ print rows (defaults rows) = [].
Proof.
  intros rows cs Hwf. apply defaults_agree. unfold wf in Hwf.
  apply andb_prop in Hwf. destruct Hwf as [Hwf _]. apply andb_prop in Hwf. apply Hwf.
Qed.

Definition cex_rows : list prow :=
  [ {| p_field := 1; p_kind := PNegFlag; p_flag := [45;45;97] |};
    {| p_field := 1; p_kind := PFlag;    p_flag := [45;45;98] |} ].

Example defaults_agree_counterexample :
  print cex_rows (defaults cex_rows) = [[45;45;98]] /\
  ~ (forall rows cs,
       parse rows cs [] = Some (defaults rows) /\ print rows (defaults rows) = []).
Proof.
  split; [vm_compute; reflexivity|].
  intros H. destruct (H cex_rows []) as [_ Hp]. vm_compute in Hp. discriminate.
Qed.

Definition trigger (k : pkind) : value :=
  match k with
  | PFlag => VBool true | PNegFlag => VBool false
  | POpt => VOpt (Some [97]) | PMulti => VList [[97]]
  end.

Definition only (rows : list prow) (r : prow) : options :=
  fun f => if f =? p_field r then trigger (p_kind r) else defaults rows f.

(* a row whose flag clap does not know: the configuration that triggers it alone is
   representable, and what it prints is rejected *)
Lemma missing_flag_witness rows cs r :
  NoDup (map p_field rows) -> In r rows -> find_crow cs (p_flag r) = None ->
  representable rows cs (only rows r) = true /\
  parse rows cs (print rows (only rows r)) = None.
Proof.
  intros Hnd Hin Hf.
  assert (Hown : only rows r (p_field r) = trigger (p_kind r))
    by (unfold only; rewrite N.eqb_refl; reflexivity).
  assert (Hoth : forall r', In r' rows -> p_field r' <> p_field r ->
            only rows r (p_field r') = default_of (p_kind r')).
  { intros r' Hr' Hne. unfold only. rewrite (proj2 (N.eqb_neq _ _) Hne). apply defaults_at; assumption. }
  split.
  - apply forallb_forall. intros r' Hr'. apply andb_true_iff. unfold also_ok.
    destruct (N.eq_dec (p_field r') (p_field r)) as [E|E].
    + rewrite (NoDup_map_inj p_field rows r' r Hnd Hr' Hin E), Hown, Hf. split.
      * destruct (p_kind r); reflexivity.
      * destruct (print_row r (only rows r)); reflexivity.
    + rewrite (print_row_default r' _ (Hoth r' Hr' E)), (Hoth r' Hr' E).
      split; [destruct (p_kind r')|]; reflexivity.
  - unfold print. rewrite (flat_map_only p_field _ rows r Hnd Hin)
      by (intros r' Hr' Hne; apply print_row_default, Hoth; assumption).
    unfold parse, print_row. rewrite Hown.
    destruct (p_kind r); cbn [trigger flat_map app length clap]; rewrite Hf; reflexivity.
Qed.

(* non-vacuity: a concrete 7-row table, clap rows in another order, with extra clap rows
   that touch printed fields but are never printed, and two flags with secondary effects:
   [--a] also sets field 6 (its own row [--f] comes EARLIER in the clap table) and [--g]
   also clears field 2 (its own row [--b], a negated flag whose default is true, comes
   LATER in the clap table) *)
Module NonVacuous.
Definition fa := [45;45;97]. Definition fb := [45;45;98]. Definition fc := [45;45;99].
Definition fd := [45;45;100]. Definition fe := [45;45;101]. Definition ff := [45;45;102].
Definition fg := [45;45;103].
Definition rows : list prow :=
  [ {| p_field := 1; p_kind := PFlag;    p_flag := fa |};
    {| p_field := 2; p_kind := PNegFlag; p_flag := fb |};
    {| p_field := 3; p_kind := POpt;     p_flag := fc |};
    {| p_field := 4; p_kind := PMulti;   p_flag := fd |};
    {| p_field := 5; p_kind := PMulti;   p_flag := fe |};
    {| p_field := 6; p_kind := PFlag;    p_flag := ff |};
    {| p_field := 7; p_kind := PFlag;    p_flag := fg |} ].
Definition cs : list crow :=
  [ {| c_long := [45;45;120]; c_arity := CBool; c_field := 1; c_effect := SetBool false; c_also := [] |};
    {| c_long := fg; c_arity := CBool; c_field := 7; c_effect := SetBool true; c_also := [(2, false)] |};
    {| c_long := ff; c_arity := CBool; c_field := 6; c_effect := SetBool true; c_also := [] |};
    {| c_long := fe; c_arity := CVec;  c_field := 5; c_effect := Push; c_also := [] |};
    {| c_long := fd; c_arity := CVec;  c_field := 4; c_effect := Push; c_also := [] |};
    {| c_long := [45;45;121]; c_arity := CVec; c_field := 4; c_effect := Push; c_also := [] |};
    {| c_long := fc; c_arity := COpt;  c_field := 3; c_effect := SetSome; c_also := [] |};
    {| c_long := [45;45;122]; c_arity := COpt; c_field := 3; c_effect := SetSome; c_also := [] |};
    {| c_long := fb; c_arity := CBool; c_field := 2; c_effect := SetBool false; c_also := [] |};
    {| c_long := [45;45;119]; c_arity := CBool; c_field := 2; c_effect := SetBool true; c_also := [(1, false)] |};
    {| c_long := fa; c_arity := CBool; c_field := 1; c_effect := SetBool true; c_also := [(6, true)] |} ].
Definition o : options :=
  fun f => match f with
           | 1 => VBool true | 2 => VBool false | 3 => VOpt (Some [])
           | 4 => VList [[97]; []; [97;45]; [97]] | 5 => VList [[100]]
           | 6 => VBool true | 7 => VBool true
           | _ => VBool true
           end.
Definition fields := map p_field rows.
Definition view (x : option options) := option_map (fun o' => map o' fields) x.

Example wf_nonvacuous : wf rows cs = true.
Proof. vm_compute. reflexivity. Qed.

Example representable_nonvacuous :
  representable rows cs o = true /\ print rows o <> [] /\
  map o fields <> map (defaults rows) fields.
Proof. repeat apply conj; vm_compute; try reflexivity; discriminate. Qed.

Example roundtrip_nonvacuous :
  view (parse rows cs (print rows o)) = Some (map o fields).
Proof. vm_compute. reflexivity. Qed.

Example print_stable_nonvacuous :
  option_map (print rows) (parse rows cs (print rows o)) = Some (print rows o).
Proof. vm_compute. reflexivity. Qed.

(* the secondary-effect side condition of [representable] cannot be dropped: [o_bad] has
   well-shaped values everywhere but has field 6 false although [--a] (printed, field 1)
   also sets it; the parse succeeds and gives field 6 = true.  The same happens for the
   negated flag: [o_bad2] has field 2 true although [--g] clears it. *)
Definition o_bad : options := fun f => if f =? 6 then VBool false else o f.
Definition o_bad2 : options := fun f => if f =? 2 then VBool true else o f.

Example also_condition_needed :
  wf rows cs = true /\
  forallb (fun r => value_ok (p_kind r) (o_bad (p_field r))) rows = true /\
  representable rows cs o_bad = false /\
  view (parse rows cs (print rows o_bad)) = Some (map o fields) /\
  o_bad 6 <> o 6 /\
  forallb (fun r => value_ok (p_kind r) (o_bad2 (p_field r))) rows = true /\
  representable rows cs o_bad2 = false /\
  option_map (fun o' => o' 2) (parse rows cs (print rows o_bad2)) = Some (VBool false).
Proof.
  split; [exact wf_nonvacuous|]. repeat apply conj; vm_compute; try reflexivity; discriminate.
Qed.

Example missing_flag_nonvacuous :
  find_crow (tl (tl (tl cs))) fg = None /\
  forallb (fun r => match parse rows [] (print rows (only rows r)) with
                    | None => representable rows [] (only rows r) | Some _ => false end)
          rows = true.
Proof. split; vm_compute; reflexivity. Qed.
End NonVacuous.
