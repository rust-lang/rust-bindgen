(* C13 — module raw lines: what [add_line], [build] and [print] do to the lines of one module. *)
From Coq Require Import List String Bool Permutation.
From BG Require Import C13.ModuleLines.
Import ListNotations.
Open Scope list_scope.

Lemma lines_of_add m k l k' :
  lines_of (add_line m k l) k' = if String.eqb k k' then lines_of m k' ++ [l] else lines_of m k'.
Proof.
  unfold lines_of. induction m as [|[k0 ls] r IH]; cbn [add_line find fst snd].
  - destruct (String.eqb k k'); reflexivity.
  - destruct (String.eqb_spec k0 k) as [->|Hne]; cbn [find fst snd].
    + destruct (String.eqb k k'); reflexivity.
    + destruct (String.eqb_spec k0 k') as [->|_]; [|exact IH].
      apply String.eqb_neq in Hne. rewrite String.eqb_sym, Hne. reflexivity.
Qed.

Lemma lines_of_fold calls m0 k :
  lines_of (fold_left (fun m c => add_line m (fst c) (snd c)) calls m0) k
  = lines_of m0 k ++ map snd (filter (fun c : string * string => String.eqb (fst c) k) calls).
Proof.
  revert m0. induction calls as [|[a b] r IH]; intros m0; cbn [fold_left filter fst snd].
  - symmetry. apply app_nil_r.
  - rewrite IH, lines_of_add. destruct (String.eqb a k); [|reflexivity].
    cbn [map snd]. rewrite <- app_assoc. reflexivity.
Qed.

Lemma lines_of_not_key m k : ~ In k (keys m) -> lines_of m k = [].
Proof.
  unfold lines_of, keys. induction m as [|[k0 ls] r IH]; cbn [map find fst In]; intros H; [reflexivity|].
  destruct (String.eqb_spec k0 k) as [E|_]; [destruct (H (or_introl E))|].
  apply IH. intros Hin. apply H. right. exact Hin.
Qed.

Lemma keys_add_in m k l x : In x (keys (add_line m k l)) -> x = k \/ In x (keys m).
Proof.
  unfold keys. induction m as [|[k0 ls] r IH]; cbn [add_line map fst In].
  - intros [<-|[]]. left. reflexivity.
  - destruct (String.eqb k0 k); cbn [map fst In]; [auto|].
    intros [H|H]; [auto|]. destruct (IH H); auto.
Qed.

Lemma keys_add_nodup m k l : NoDup (keys m) -> NoDup (keys (add_line m k l)).
Proof.
  unfold keys. induction m as [|[k0 ls] r IH]; cbn [add_line map fst]; intros H.
  - constructor; [intros []|constructor].
  - destruct (String.eqb_spec k0 k) as [_|Hne]; [exact H|].
    inversion H as [|? ? Hn Hd]; subst. cbn [map fst]. constructor; [|exact (IH Hd)].
    intros Hin. destruct (keys_add_in _ _ _ _ Hin); [congruence|contradiction].
Qed.

Lemma keys_fold_nodup calls m0 : NoDup (keys m0) ->
  NoDup (keys (fold_left (fun m c => add_line m (fst c) (snd c)) calls m0)).
Proof.
  revert m0. induction calls as [|c r IH]; intros m0 H; [exact H|].
  apply IH, keys_add_nodup, H.
Qed.

Lemma filter_one_key k k' (ls : list string) :
  map snd (filter (fun c : string * string => String.eqb (fst c) k) (map (fun l => (k', l)) ls))
  = if String.eqb k' k then ls else [].
Proof.
  destruct (String.eqb k' k) eqn:E; induction ls as [|l r IH]; cbn [map filter fst];
    rewrite ?E; cbn [map snd]; congruence.
Qed.

Lemma filter_print_absent order m k :
  ~ In k order ->
  map snd (filter (fun c : string * string => String.eqb (fst c) k) (print order m)) = [].
Proof.
  unfold print. induction order as [|a r IH]; cbn [flat_map In]; intros H; [reflexivity|].
  rewrite filter_app, map_app, filter_one_key, IH by auto.
  destruct (String.eqb_spec a k) as [E|_]; [destruct (H (or_introl E))|reflexivity].
Qed.

Lemma filter_print_present order m k :
  NoDup order -> In k order ->
  map snd (filter (fun c : string * string => String.eqb (fst c) k) (print order m)) = lines_of m k.
Proof.
  unfold print. induction order as [|a r IH]; cbn [flat_map In]; intros Hnd Hin; [destruct Hin|].
  inversion Hnd as [|? ? Hn Hd]; subst. rewrite filter_app, map_app, filter_one_key.
  destruct (String.eqb_spec a k) as [->|Hne].
  - fold (print r m). rewrite (filter_print_absent r m k Hn). apply app_nil_r.
  - destruct Hin as [E|Hin]; [contradiction|]. apply (IH Hd Hin).
Qed.

Lemma print_build_roundtrip m order k :
  NoDup (keys m) -> Permutation order (keys m) ->
  lines_of (build (print order m)) k = lines_of m k.
Proof.
  intros Hm HP. unfold build. rewrite lines_of_fold. cbn [lines_of find app].
  destruct (in_dec string_dec k order) as [Hin|Hnin].
  - apply filter_print_present; [|exact Hin].
    apply (Permutation_NoDup (Permutation_sym HP) Hm).
  - rewrite (filter_print_absent order m k Hnin). symmetry. apply lines_of_not_key.
    intros Hk. apply Hnin. apply (Permutation_in _ (Permutation_sym HP) Hk).
Qed.
