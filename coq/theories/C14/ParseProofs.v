(* C14/Parse — theory of the `--rust-target` string model: [parse_target] is ["nightly"] or
   [core] applied to the two sides of the first '-', and [core] reads a version with
   [version_of] and picks the target with [select]. *)
From Coq Require Import NArith List Bool String Ascii Decimal DecimalString DecimalN.
From BG Require Import C14.Model C14.Parse.
Import ListNotations.
Open Scope N_scope.
Open Scope string_scope.

Lemma has_char_app c a b : has_char c (a ++ b) = has_char c a || has_char c b.
Proof.
  induction a as [|x a IH]; cbn [append has_char]; [reflexivity|].
  rewrite IH, orb_assoc. reflexivity.
Qed.

Lemma split_once_app c v r :
  has_char c v = false -> split_once c (v ++ String c r) = Some (v, r).
Proof.
  induction v as [|x v IH]; cbn [append split_once has_char]; intros H.
  - rewrite Ascii.eqb_refl. reflexivity.
  - apply orb_false_elim in H. destruct H as [Hx Hv]. rewrite Hx, (IH Hv). reflexivity.
Qed.

Lemma split_once_none c s : has_char c s = false -> split_once c s = None.
Proof.
  induction s as [|x s IH]; cbn [split_once has_char]; intros H; [reflexivity|].
  apply orb_false_elim in H. destruct H as [Hx Hs]. rewrite Hx, (IH Hs). reflexivity.
Qed.

Lemma split_once_some : forall c s x y,
  split_once c s = Some (x, y) -> s = x ++ String c y /\ has_char c x = false.
Proof.
  induction s as [|a s IH]; intros x y H; cbn [split_once] in H; [discriminate|].
  destruct (Ascii.eqb a c) eqn:E.
  - apply Ascii.eqb_eq in E. injection H as <- <-. subst a. split; reflexivity.
  - destruct (split_once c s) as [[x' y']|]; [|discriminate].
    injection H as <- <-. destruct (IH x' y' eq_refl) as [-> Hx].
    split; [reflexivity|]. cbn [has_char]. rewrite E, Hx. reflexivity.
Qed.

Lemma has_char_neq c a b : has_char c a = true -> has_char c b = false -> String.eqb a b = false.
Proof. intros Ha Hb. apply String.eqb_neq. intros ->. congruence. Qed.

Lemma dec_no_char c n :
  existsb (fun x => Ascii.eqb x c) ["0";"1";"2";"3";"4";"5";"6";"7";"8";"9"]%char = false ->
  has_char c (dec n) = false.
Proof.
  cbn [existsb]. intros H. repeat (apply orb_false_elim in H; destruct H as [? H]).
  unfold dec. induction (N.to_uint n); cbn [NilEmpty.string_of_uint has_char]; [reflexivity|..];
    rewrite IHu, orb_false_r; assumption.
Qed.

Lemma dec_nonempty n : dec n <> "".
Proof.
  unfold dec. intros H. destruct (N.to_uint n) eqn:E; try discriminate H.
  pose proof (Unsigned.of_to n) as Hn. rewrite E in Hn. subst n. discriminate E.
Qed.

(* the match of [parse_u64] leaves at the first bit that differs from those of '+' *)
Lemma strip_plus a r : Ascii.eqb a "+" = false ->
  match String a r with String "+" r' => r' | _ => String a r end = String a r.
Proof.
  destruct a as [b0 b1 b2 b3 b4 b5 b6 b7].
  destruct b0; [|reflexivity]. destruct b1; [|reflexivity]. destruct b2; [reflexivity|].
  destruct b3; [|reflexivity]. destruct b4; [reflexivity|]. destruct b5; [|reflexivity].
  destruct b6; [reflexivity|]. destruct b7; [reflexivity|]. discriminate.
Qed.

Lemma parse_u64_le s n : parse_u64 s = Some n -> n <= u64_max.
Proof.
  unfold parse_u64. generalize (match s with String "+" r => r | _ => s end). intros body.
  destruct body as [|a r]; [discriminate|].
  destruct (NilEmpty.uint_of_string (String a r)) as [d|]; [|discriminate].
  cbv zeta. destruct (N.leb_spec (N.of_uint d) u64_max) as [H|_]; [|discriminate].
  intros [= <-]. exact H.
Qed.

Lemma parse_u64_dec n : n <= u64_max -> parse_u64 (dec n) = Some n.
Proof.
  intros Hn. pose proof (dec_nonempty n) as Hne. pose proof (dec_no_char "+" n eq_refl) as Hp.
  pose proof (NilEmpty.usu (N.to_uint n)) as Hu. fold (dec n) in Hu.
  unfold parse_u64. destruct (dec n) as [|a r]; [contradiction|].
  cbn [has_char] in Hp. apply orb_false_elim in Hp. rewrite (strip_plus a r (proj1 Hp)), Hu.
  cbv zeta. rewrite Unsigned.of_to. apply N.leb_le in Hn. rewrite Hn. reflexivity.
Qed.

Lemma parse_version_dec m p : m <= u64_max -> p <= u64_max ->
  parse_version (dec m ++ "." ++ dec p) = Some (m, p).
Proof.
  intros Hm Hp. unfold parse_version.
  change (dec m ++ "." ++ dec p) with (dec m ++ String "." (dec p)).
  rewrite (split_once_app "." (dec m) (dec p) (dec_no_char "." m eq_refl)).
  rewrite (parse_u64_dec m Hm), (parse_u64_dec p Hp). reflexivity.
Qed.

Lemma parse_version_le tail m p : parse_version tail = Some (m, p) ->
  m <= u64_max /\ p <= u64_max.
Proof.
  unfold parse_version. destruct (split_once "." tail) as [[mi pa]|].
  - destruct (parse_u64 mi) as [m'|] eqn:E1; [|discriminate].
    destruct (parse_u64 pa) as [p'|] eqn:E2; [|discriminate].
    intros [= <- <-]. split; eapply parse_u64_le; eassumption.
  - destruct (parse_u64 tail) as [m'|] eqn:E1; [|discriminate].
    intros [= <- <-]. split; [eapply parse_u64_le; eassumption|discriminate].
Qed.

Lemma pred_succ_lt m : m <> 0 -> m - 1 + 1 = m /\ m - 1 < m.
Proof.
  intros H. rewrite N.sub_1_r, N.add_1_r. split; [apply N.succ_pred, H|apply N.lt_pred_l, H].
Qed.

Lemma mk_stable_some T m p t : mk_stable T m p = Some t ->
  t = Stable m p /\ earliest_minor T <= m.
Proof.
  unfold mk_stable. destruct (N.ltb_spec m (earliest_minor T)) as [_|H]; [discriminate|].
  intros [= <-]. split; [reflexivity|exact H].
Qed.

Lemma mk_stable_ge T m p : earliest_minor T <= m -> mk_stable T m p = Some (Stable m p).
Proof. intros H. unfold mk_stable. rewrite (proj2 (N.ltb_ge _ _) H). reflexivity. Qed.

(* the version a string `1.<minor>[.<patch>]` names *)
Definition version_of (v : string) : option (N * N) :=
  match split_once "." v with
  | Some (major, tail) => if String.eqb major "1" then parse_version tail else None
  | None => None
  end.

(* the target a version stands for under a pre-release tag *)
Definition select (T : table) (pre : string) (m p : N) : option target :=
  if String.eqb pre "nightly"
  then (if N.eqb m 0 then None else mk_stable T (N.sub m 1) u64_max)
  else mk_stable T m p.

Definition core (T : table) (v pre : string) : option target :=
  if pre_release_ok pre
  then match version_of v with Some (m, p) => select T pre m p | None => None end
  else None.

Lemma parse_target_core T s :
  parse_target T s =
  if String.eqb s "nightly" then Some Nightly else
  let vp := match split_once "-" s with Some p => p | None => (s, "") end in
  core T (fst vp) (snd vp).
Proof.
  unfold parse_target, core, version_of, select.
  destruct (String.eqb s "nightly"); [reflexivity|]. cbv zeta.
  generalize (match split_once "-" s with Some p => p | None => (s, "") end).
  intros [v pre]. cbn [fst snd].
  destruct (pre_release_ok pre); [|reflexivity].
  destruct (split_once "." v) as [[major tail]|]; [|reflexivity].
  destruct (String.eqb major "1"); [|reflexivity].
  destruct (parse_version tail) as [[m p]|]; reflexivity.
Qed.

Lemma parse_target_nodash T v :
  has_char "-" v = false -> String.eqb v "nightly" = false ->
  parse_target T v = core T v "".
Proof. intros Hd Hn. rewrite parse_target_core, Hn, (split_once_none "-" v Hd). reflexivity. Qed.

Lemma parse_target_dash T v pre :
  has_char "-" v = false ->
  parse_target T (v ++ "-" ++ pre) = core T v pre.
Proof.
  intros Hd. change (v ++ "-" ++ pre) with (v ++ String "-" pre).
  rewrite parse_target_core, (split_once_app "-" v pre Hd).
  rewrite (has_char_neq "-" (v ++ String "-" pre) "nightly"); [reflexivity| |reflexivity].
  rewrite has_char_app. cbn [has_char]. rewrite Ascii.eqb_refl. apply orb_true_r.
Qed.

Lemma core_plain T v :
  core T v "" = match version_of v with Some (m, p) => mk_stable T m p | None => None end.
Proof. reflexivity. Qed.

Lemma core_nightly T v :
  core T v "nightly" =
  match version_of v with
  | Some (m, p) => if N.eqb m 0 then None else mk_stable T (N.sub m 1) u64_max
  | None => None
  end.
Proof. reflexivity. Qed.

(* any accepted tag other than "nightly" (beta, beta.N, none) selects the same target *)
Lemma core_pre_release T v pre :
  pre_release_ok pre = true -> String.eqb pre "nightly" = false -> core T v pre = core T v "".
Proof. intros Hp Hn. unfold core, select. rewrite Hp, Hn. reflexivity. Qed.

Lemma version_of_not_nightly v mp : version_of v = Some mp -> String.eqb v "nightly" = false.
Proof. intros H. apply String.eqb_neq. intros ->. discriminate H. Qed.

Lemma version_of_le v m p : version_of v = Some (m, p) -> m <= u64_max /\ p <= u64_max.
Proof.
  unfold version_of. destruct (split_once "." v) as [[major tail]|]; [|discriminate].
  destruct (String.eqb major "1"); [apply parse_version_le|discriminate].
Qed.

Lemma version_of_dec m p : m <= u64_max -> p <= u64_max ->
  version_of ("1." ++ dec m ++ "." ++ dec p) = Some (m, p).
Proof. intros Hm Hp. exact (parse_version_dec m p Hm Hp). Qed.

Theorem parse_in_range : forall T s m p,
  parse_target T s = Some (Stable m p) ->
  earliest_minor T <= m /\ m <= u64_max /\ p <= u64_max.
Proof.
  intros T s m p. rewrite parse_target_core.
  destruct (String.eqb s "nightly"); [discriminate|]. cbv zeta.
  generalize (match split_once "-" s with Some p => p | None => (s, "") end).
  intros [v pre]. cbn [fst snd]. unfold core, select.
  destruct (pre_release_ok pre); [|discriminate].
  destruct (version_of v) as [[m' p']|] eqn:E; [|discriminate].
  apply version_of_le in E. destruct E as [Hm Hp].
  destruct (String.eqb pre "nightly"); [destruct (N.eqb m' 0); [discriminate|]|];
    intros H; apply mk_stable_some in H; destruct H as [[= -> ->] He];
    repeat split; try assumption; try reflexivity.
  exact (N.le_trans _ _ _ (N.le_sub_l m' 1) Hm).
Qed.

Theorem parse_print : forall T m p, m <= u64_max -> p <= u64_max ->
  parse_target T (print_target (Stable m p)) = mk_stable T m p.
Proof.
  intros T m p Hm Hp. cbn [print_target].
  rewrite parse_target_nodash, core_plain, (version_of_dec m p Hm Hp); [reflexivity| |reflexivity].
  rewrite !has_char_app, !(dec_no_char "-" _ eq_refl). reflexivity.
Qed.

Theorem nightly_is_previous_release : forall T v t,
  has_char "-" v = false ->
  parse_target T (v ++ "-nightly") = Some t ->
  exists m p, t = Stable m u64_max /\ parse_target T v = Some (Stable (m + 1) p)
              /\ is_compatible t (Stable (m + 1) 0) = false.
Proof.
  intros T v t Hd H. change (v ++ "-nightly") with (v ++ "-" ++ "nightly") in H.
  rewrite (parse_target_dash T v "nightly" Hd), core_nightly in H.
  destruct (version_of v) as [[m' p]|] eqn:E; [|discriminate].
  destruct (N.eqb_spec m' 0) as [|E0]; [discriminate|]. destruct (pred_succ_lt m' E0) as [Hs Hlt].
  apply mk_stable_some in H. destruct H as [-> He].
  exists (m' - 1), p. rewrite Hs. split; [reflexivity|]. split.
  - rewrite (parse_target_nodash T v Hd (version_of_not_nightly _ _ E)), core_plain, E.
    apply mk_stable_ge. exact (N.le_trans _ _ _ He (N.lt_le_incl _ _ Hlt)).
  - cbn [is_compatible]. apply N.leb_gt, Hlt.
Qed.

Theorem nightly_of_earliest_rejected : forall T v p,
  has_char "-" v = false ->
  parse_target T v = Some (Stable (earliest_minor T) p) ->
  parse_target T (v ++ "-nightly") = None.
Proof.
  intros T v p Hd H. destruct (parse_target T (v ++ "-nightly")) as [t|] eqn:E; [|reflexivity].
  (* an accepted `-nightly` would be the release before the earliest, which is out of range *)
  destruct (nightly_is_previous_release T v t Hd E) as (m & p' & -> & H' & _).
  rewrite H in H'. injection H' as Hm _. apply parse_in_range in E. destruct E as [E _].
  rewrite Hm, N.add_1_r in E. destruct (N.nle_succ_diag_l m E).
Qed.

Theorem beta_is_release : forall T v,
  has_char "-" v = false -> v <> "nightly" ->
  parse_target T (v ++ "-beta") = parse_target T v.
Proof.
  intros T v Hd Hn. apply String.eqb_neq in Hn.
  change (v ++ "-beta") with (v ++ "-" ++ "beta").
  rewrite (parse_target_dash T v "beta" Hd), (parse_target_nodash T v Hd Hn).
  apply core_pre_release; reflexivity.
Qed.

Theorem other_pre_release_rejected : forall T v pre,
  has_char "-" v = false -> pre_release_ok pre = false ->
  parse_target T (v ++ "-" ++ pre) = None.
Proof.
  intros T v pre Hd Hp. rewrite (parse_target_dash T v pre Hd). unfold core.
  rewrite Hp. reflexivity.
Qed.

Theorem other_major_rejected : forall T major rest,
  has_char "-" major = false -> has_char "." major = false -> major <> "1" ->
  has_char "-" rest = false ->
  parse_target T (major ++ "." ++ rest) = None.
Proof.
  intros T major rest Hd Hdot Hne Hr.
  change (major ++ "." ++ rest) with (major ++ String "." rest).
  rewrite parse_target_nodash, core_plain.
  - unfold version_of. rewrite (split_once_app "." major rest Hdot).
    apply String.eqb_neq in Hne. rewrite Hne. reflexivity.
  - rewrite has_char_app. cbn [has_char]. rewrite Hd, Hr. reflexivity.
  - apply (has_char_neq "."); [|reflexivity].
    rewrite has_char_app. cbn [has_char]. rewrite Ascii.eqb_refl. apply orb_true_r.
Qed.

Print Assumptions parse_in_range.
Print Assumptions parse_print.
Print Assumptions nightly_is_previous_release.
Print Assumptions nightly_of_earliest_rejected.
Print Assumptions beta_is_release.
Print Assumptions other_pre_release_rejected.
Print Assumptions other_major_rejected.
