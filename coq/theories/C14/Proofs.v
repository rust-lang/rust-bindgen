(* C14 — what [is_compatible], [enabled], the edition functions and [latest_minor] compute,
   and the gating theorems for any feature table. *)
From Coq Require Import NArith List Bool String.
From BG Require Import C14.Model.
Import ListNotations.
Open Scope N_scope.

Lemma leb_le_trans a b c : (a <=? b) = true -> b <= c -> (a <=? c) = true.
Proof. intros H Hle. apply N.leb_le in H. apply N.leb_le. exact (N.le_trans _ _ _ H Hle). Qed.

Lemma find_rev_last {A} (P : A -> bool) l x :
  find P (rev l) = Some x ->
  exists l1 l2, l = l1 ++ x :: l2 /\ P x = true /\ forallb (fun y => negb (P y)) l2 = true.
Proof.
  induction l as [|a l IH] using rev_ind; [discriminate|].
  rewrite rev_app_distr. cbn [rev app find]. destruct (P a) eqn:Pa.
  - intros [= <-]. exists l, []. auto.
  - intros H. destruct (IH H) as (l1 & l2 & -> & Px & Hall).
    exists l1, (l2 ++ [a]). rewrite <- app_assoc. repeat split; [exact Px|].
    rewrite forallb_app, Hall. cbn [forallb]. rewrite Pa. reflexivity.
Qed.

Lemma compat_mono m p m' p' b :
  m <= m' -> is_compatible (Stable m p) b = true -> is_compatible (Stable m' p') b = true.
Proof.
  intros Hle. destruct b as [bm bp|]; cbn [is_compatible]; [|discriminate].
  intros H. exact (leb_le_trans _ _ _ H Hle).
Qed.

Lemma compat_nightly t b : is_compatible t b = true -> is_compatible Nightly b = true.
Proof. reflexivity. Qed.

Lemma enabled_stable T m p e f :
  enabled T (Stable m p) e f
  = existsb (fun r => (fst r <=? m) && row_enables (snd r) e f) (stable_rows T).
Proof. reflexivity. Qed.

Lemma enabled_nightly T e f :
  enabled T Nightly e f
  = row_enables (nightly_feats T) e f || existsb (fun r => row_enables (snd r) e f) (stable_rows T).
Proof. reflexivity. Qed.

Definition compat_le (t t' : target) : Prop :=
  forall b, is_compatible t b = true -> is_compatible t' b = true.

Lemma enabled_compat T t t' e f :
  compat_le t t' -> enabled T t e f = true -> enabled T t' e f = true.
Proof.
  intros H E. unfold enabled in *. apply orb_true_iff in E. apply orb_true_iff.
  destruct E as [E|E]; [left|right].
  - apply andb_prop in E. destruct E as [Ec Er]. apply andb_true_intro. auto.
  - apply existsb_exists in E. destruct E as (r & Hin & Hr). apply existsb_exists. exists r.
    apply andb_prop in Hr. destruct Hr as [Hc Hrow]. split; [exact Hin|]. apply andb_true_intro. auto.
Qed.

Lemma monotone T e f m p m' p' :
  m <= m' -> enabled T (Stable m p) e f = true -> enabled T (Stable m' p') e f = true.
Proof. intros Hle. apply enabled_compat. intros b. apply compat_mono, Hle. Qed.

Lemma nightly_top T t e f : enabled T t e f = true -> enabled T Nightly e f = true.
Proof. apply enabled_compat. intros b. apply compat_nightly. Qed.

Lemma features_new_spec T t e f b :
  In (f, b) (features_new T t e) -> b = enabled T t e f.
Proof.
  unfold features_new. intros H. apply in_map_iff in H. destruct H as (x & [= -> <-] & _). reflexivity.
Qed.

Lemma allowed_edition_ge_min eds e me :
  eds_respect me eds = true -> edition_ok eds e = true -> me <= e.
Proof.
  unfold eds_respect, edition_ok. destruct eds as [|a eds'].
  - intros H _. apply N.eqb_eq in H. subst me. apply N.le_0_l.
  - intros Hall Hok. apply existsb_exists in Hok. destruct Hok as (x & Hin & Hx).
    apply N.eqb_eq in Hx. subst x. apply N.leb_le, (proj1 (forallb_forall _ _) Hall e Hin).
Qed.

(* the release a row of the table stands for: the nightly row, or 1.m *)
Definition row_target (row : option N) : target :=
  match row with Some m => Stable m 0 | None => Nightly end.

Lemma row_allows spec row fs t e f :
  forallb (feat_respects spec row) fs = true -> is_compatible t (row_target row) = true ->
  row_enables fs e f = true -> spec_allows spec f t e = true.
Proof.
  intros Hall Hc Hen. apply existsb_exists in Hen. destruct Hen as (fe & Hin & Hfe).
  apply andb_prop in Hfe. destruct Hfe as [Hname Hed]. apply String.eqb_eq in Hname. subst f.
  apply (proj1 (forallb_forall _ _) Hall) in Hin. unfold feat_respects in Hin.
  unfold spec_allows.
  destruct (spec (fst fe)) as [[s me|]|]; [| |discriminate]; destruct row as [m|], t as [tm tp|];
    cbn [row_target is_compatible] in Hc; try discriminate; try reflexivity.
  - apply andb_prop in Hin. destruct Hin as [Hs Hm]. apply andb_true_intro. split.
    + apply N.leb_le in Hc. exact (leb_le_trans _ _ _ Hs Hc).
    + apply N.leb_le, (allowed_edition_ge_min _ _ _ Hm Hed).
  - apply andb_prop in Hin. apply N.leb_le, (allowed_edition_ge_min _ _ _ (proj2 Hin) Hed).
  - apply N.leb_le, (allowed_edition_ge_min _ _ _ Hin Hed).
Qed.

Lemma not_too_early spec T t e f :
  table_respects spec T = true -> enabled T t e f = true -> spec_allows spec f t e = true.
Proof.
  unfold table_respects, enabled. intros Hwf Hen.
  apply andb_prop in Hwf. destruct Hwf as [Hn Hs].
  apply orb_true_iff in Hen. destruct Hen as [Hen|Hen].
  - apply andb_prop in Hen. destruct Hen as [Hc Hrow]. exact (row_allows spec None _ t e f Hn Hc Hrow).
  - apply existsb_exists in Hen. destruct Hen as (r & Hin & Hr).
    apply andb_prop in Hr. destruct Hr as [Hc Hrow].
    exact (row_allows spec (Some (fst r)) _ t e f (proj1 (forallb_forall _ _) Hs r Hin) Hc Hrow).
Qed.

Lemma edition_minor_in T e em : edition_minor T e = Some em -> In (e, em) (editions T).
Proof.
  unfold edition_minor. destruct (find _ (editions T)) as [[ev em']|] eqn:Hf; [|discriminate].
  intros [= <-]. apply find_some in Hf. destruct Hf as [Hin Heq].
  apply N.eqb_eq in Heq. cbn [fst] in Heq. subst ev. exact Hin.
Qed.

Lemma edition_nightly T e : edition_available T e Nightly = true.
Proof. reflexivity. Qed.

Lemma generate_accepts T t e :
  edition_available T e t = true -> generate_features T t (Some e) = Some (features_new T t e).
Proof. cbn [generate_features]. intros ->. reflexivity. Qed.

(* the fold of [latest_minor], from any starting value *)
Definition max_minor (rows : list (N * list feat)) (acc : N) : N :=
  fold_left (fun acc r => if acc <? fst r then fst r else acc) rows acc.

Lemma max_minor_cons a rows acc :
  max_minor (a :: rows) acc = max_minor rows (N.max acc (fst a)).
Proof.
  change (max_minor (a :: rows) acc) with (max_minor rows (if acc <? fst a then fst a else acc)).
  f_equal. destruct (N.ltb_spec acc (fst a)) as [H|H]; symmetry.
  - apply N.max_r, N.lt_le_incl, H.
  - apply N.max_l, H.
Qed.

Lemma max_minor_spec rows acc :
  acc <= max_minor rows acc /\
  (forall r, In r rows -> fst r <= max_minor rows acc) /\
  (max_minor rows acc = acc \/ exists r, In r rows /\ fst r = max_minor rows acc).
Proof.
  revert acc. induction rows as [|a rows IH]; intros acc.
  - split; [reflexivity|]. split; [intros r []|left; reflexivity].
  - rewrite max_minor_cons. destruct (IH (N.max acc (fst a))) as (I1 & I2 & I3).
    split; [exact (N.le_trans _ _ _ (N.le_max_l _ _) I1)|]. split.
    + intros r [<-|Hin]; [exact (N.le_trans _ _ _ (N.le_max_r _ _) I1)|exact (I2 r Hin)].
    + destruct I3 as [->|(r & Hin & Hr)].
      * destruct (N.max_dec acc (fst a)) as [E|E]; [left; exact E|].
        right. exists a. split; [left; reflexivity|symmetry; exact E].
      * right. exists r. split; [right; exact Hin|exact Hr].
Qed.

Lemma latest_minor_ge T r : In r (stable_rows T) -> fst r <= latest_minor T.
Proof. apply (max_minor_spec (stable_rows T) 0). Qed.

Lemma latest_minor_attained T :
  stable_rows T <> [] -> exists r, In r (stable_rows T) /\ fst r = latest_minor T.
Proof.
  intros Hne. destruct (max_minor_spec (stable_rows T) 0) as (_ & Hge & [E|H]); [|exact H].
  unfold latest_minor. fold (max_minor (stable_rows T) 0). rewrite E in *.
  destruct (stable_rows T) as [|a rows]; [contradiction|].
  exists a. split; [left; reflexivity|]. apply N.le_0_r, Hge. left. reflexivity.
Qed.

Lemma default_enables_all_stable T r e f :
  In r (stable_rows T) -> row_enables (snd r) e f = true ->
  enabled T (default_target T) e f = true.
Proof.
  intros Hin Hrow. unfold default_target. rewrite enabled_stable.
  apply existsb_exists. exists r. split; [exact Hin|]. apply andb_true_intro. split; [|exact Hrow].
  apply N.leb_le, latest_minor_ge, Hin.
Qed.
