From Coq Require Import NArith List Bool String Ascii.
From BG Require Import C14.Model C14.Parse C14.ParseProofs.
Import ListNotations.
Open Scope N_scope.
Open Scope string_scope.

(* whatever is accepted is a supported release with u64 components *)
Theorem parse_in_range : forall T s m p,
  parse_target T s = Some (Stable m p) ->
  earliest_minor T <= m /\ m <= u64_max /\ p <= u64_max.
Proof. exact ParseProofs.parse_in_range. Qed.
Print Assumptions parse_in_range.

(* Display then FromStr is the identity on supported releases (and rejects unsupported ones) *)
Theorem parse_print : forall T m p, m <= u64_max -> p <= u64_max ->
  parse_target T (print_target (Stable m p)) = mk_stable T m p.
Proof. exact ParseProofs.parse_print. Qed.
Print Assumptions parse_print.

Theorem parse_print_nightly : forall T, parse_target T (print_target Nightly) = Some Nightly.
Proof. intros T. reflexivity. Qed.
Print Assumptions parse_print_nightly.

(* THE PRE-RELEASE RULE: `<v>-nightly` is accepted only as the maximally patched stable release
   just before <v>; no release compatible with <v> itself is compatible with it, so nothing
   stabilised in <v> is enabled (Model.enabled goes through is_compatible) *)
Theorem nightly_is_previous_release : forall T v t,
  has_char "-" v = false ->
  parse_target T (v ++ "-nightly") = Some t ->
  exists m p, t = Stable m u64_max /\ parse_target T v = Some (Stable (m + 1) p)
              /\ is_compatible t (Stable (m + 1) 0) = false.
Proof. exact ParseProofs.nightly_is_previous_release. Qed.
Print Assumptions nightly_is_previous_release.

(* the oldest supported release has no `-nightly` pre-release that is supported *)
Theorem nightly_of_earliest_rejected : forall T v p,
  has_char "-" v = false ->
  parse_target T v = Some (Stable (earliest_minor T) p) ->
  parse_target T (v ++ "-nightly") = None.
Proof. exact ParseProofs.nightly_of_earliest_rejected. Qed.
Print Assumptions nightly_of_earliest_rejected.

(* a beta is identified with the release it leads to *)
Theorem beta_is_release : forall T v,
  has_char "-" v = false -> v <> "nightly" ->
  parse_target T (v ++ "-beta") = parse_target T v.
Proof. exact ParseProofs.beta_is_release. Qed.
Print Assumptions beta_is_release.

(* any other pre-release tag, and any major version other than 1, is rejected *)
Theorem other_pre_release_rejected : forall T v pre,
  has_char "-" v = false -> pre_release_ok pre = false ->
  parse_target T (v ++ "-" ++ pre) = None.
Proof. exact ParseProofs.other_pre_release_rejected. Qed.
Print Assumptions other_pre_release_rejected.

Theorem other_major_rejected : forall T major rest,
  has_char "-" major = false -> has_char "." major = false -> major <> "1" ->
  has_char "-" rest = false ->
  parse_target T (major ++ "." ++ rest) = None.
Proof. exact ParseProofs.other_major_rejected. Qed.
Print Assumptions other_major_rejected.

(* non-vacuity on a three-row table (earliest 1.40) *)
Theorem parse_examples : exists T,
  earliest_minor T = 40 /\
  parse_target T "1.82.0-nightly" = Some (Stable 81 u64_max) /\
  parse_target T "1.82" = Some (Stable 82 0) /\
  parse_target T "1.82.1-beta.2" = Some (Stable 82 1) /\
  parse_target T "1.+77.007" = Some (Stable 77 7) /\
  parse_target T "1.40.0-nightly" = None /\
  parse_target T "1.39" = None /\
  parse_target T "1.0.0-nightly" = None /\
  parse_target T "1.82-" = Some (Stable 82 0) /\
  parse_target T "1.18446744073709551616" = None /\
  parse_target T "nightly" = Some Nightly.
Proof.
  exists {| editions := [(2018, 31); (2021, 56)]; nightly_feats := [];
            stable_rows := [(82, []); (77, []); (40, [])] |}.
  vm_compute. repeat split; reflexivity.
Qed.
Print Assumptions parse_examples.
