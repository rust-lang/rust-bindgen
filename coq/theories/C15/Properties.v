From Coq Require Import NArith ZArith List Bool.
From BG Require Import C15.Model C15.Proofs.
Import ListNotations.
Open Scope N_scope.

(* whatever the external formatter does, writing yields the header comment and the raw
   lines followed by exactly one of: the unformatted source, the
   prettyplease text, the formatter's output *)
Theorem write_total : forall header raw f source pretty ch,
  write header raw f source pretty ch = prefix header raw ++ body f source pretty ch /\
  (body f source pretty ch = source \/ body f source pretty ch = pretty \/
   body f source pretty ch = out ch).
Proof.
  intros header raw f source pretty ch. split; [reflexivity|].
  rewrite body_eq. destruct f, (formatter_failed ch); auto.
Qed.
Print Assumptions write_total.

(* any signalled failure (cannot spawn, pipe error, wait error, killed by a signal, exit
   status other than 0 / 3, output that is not UTF-8) falls back to the unformatted source *)
Theorem failure_falls_back : forall source pretty ch,
  formatter_failed ch = true -> body FRustfmt source pretty ch = source.
Proof. intros source pretty ch H. rewrite body_eq, H. reflexivity. Qed.
Print Assumptions failure_falls_back.

(* a formatter that did not fail has its output used *)
Theorem success_uses_output : forall source pretty ch,
  formatter_failed ch = false -> body FRustfmt source pretty ch = out ch.
Proof. intros source pretty ch H. rewrite body_eq, H. reflexivity. Qed.
Print Assumptions success_uses_output.

(* the formatter choice and the child's behaviour never touch the header / raw lines *)
Theorem prefix_independent : forall header raw f f' s p ch ch',
  firstn (length (prefix header raw)) (write header raw f s p ch) =
  firstn (length (prefix header raw)) (write header raw f' s p ch').
Proof. intros. rewrite !write_prefix. reflexivity. Qed.
Print Assumptions prefix_independent.

Example fallback_nonvacuous :
  let ch := {| spawn_ok := true; copy_ok := true; out := [104; 97; 108; 102]; out_utf8 := true; status := Code 1%Z |} in
  formatter_failed ch = true /\ write (Some [47]) [[114]] FRustfmt [115; 114; 99] [112] ch = [47; 10; 10; 114; 10; 10; 115; 114; 99].
Proof. vm_compute. split; reflexivity. Qed.
