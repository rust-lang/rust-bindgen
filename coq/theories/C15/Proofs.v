From Coq Require Import NArith ZArith List Bool.
From BG Require Import C15.Model.
Import ListNotations.
Open Scope N_scope.

Lemma body_eq f source pretty ch :
  body f source pretty ch =
  match f with
  | FNone => source
  | FPrettyplease => pretty
  | FRustfmt => if formatter_failed ch then source else out ch
  end.
Proof.
  destruct f; try reflexivity. unfold body, format_tokens, formatter_failed.
  destruct (spawn_ok ch); [|reflexivity].
  destruct (copy_ok ch); [|reflexivity].
  destruct (status ch) as [c| |], (out_utf8 ch); try reflexivity.
  (* exit codes 0 and 3 are the two that count as success *)
  destruct c as [|[[p|p|]|p|]|p]; reflexivity.
Qed.

Lemma write_prefix header raw f s p ch :
  firstn (length (prefix header raw)) (write header raw f s p ch) = prefix header raw.
Proof.
  unfold write. rewrite firstn_app, Nat.sub_diag, firstn_all. apply app_nil_r.
Qed.

Lemma no_formatter_is_source header raw s p ch :
  write header raw FNone s p ch = prefix header raw ++ s.
Proof. reflexivity. Qed.
