(* C16 — model of the C declarator printer of bindgen/codegen/serialize.rs
   (`impl CSerialize for Type`, `impl CSerialize for Function`, `serialize_args`,
   `serialize_sep`) and an independent reader of C declarations (C11 6.7.6).
   Executable definitions only.

   Level of abstraction: the printer writes bytes, the model emits tokens.  The
   abstraction function is a C lexer; the only places where the lexer matters are
   identifiers that spell a keyword owning a token of its own (`const`, `return`),
   so every word the printer writes goes through [lex_word].  Lexical validity of
   identifiers (character set, non-emptiness) is below this model.  White space is
   dropped: every place where the printer omits a blank has punctuation on one side.

   Not modelled: the Err returns (unsupported IntKind / TypeKind, non-Function items),
   the variadic branch of `impl CSerialize for Function` (wrap_as_variadic = Some),
   TypeKind::ResolvedTypeRef and unnamed TypeKind::Alias (both recurse into the
   referenced type with the same stack, a const ResolvedTypeRef after writing "const ";
   [cty] is the type after that resolution). *)
From Coq Require Import NArith List Bool String Ascii DecimalString.
Import ListNotations.
Open Scope string_scope.
Open Scope list_scope.

(* ------------------------------------------------------------------ tokens *)

Inductive tok :=
| TId (s : string)        (* identifiers and every keyword except the two below *)
| TNum (n : N)
| TStar | TLPar | TRPar | TLBrk | TRBrk | TComma
| TConst                  (* the keyword `const` *)
| TEllipsis               (* never produced: the variadic branch is not modelled *)
| TLBrace | TRBrace | TSemi
| TReturn.                (* the keyword `return` *)

(* what a C lexer makes of a word written by the printer *)
Definition lex_word (s : string) : tok :=
  if String.eqb s "const" then TConst
  else if String.eqb s "return" then TReturn
  else TId s.

(* ------------------------------------------------------------------ types *)

Inductive cty :=
| CBase (words : list string) (const : bool)
    (* Void, NullPtr, Int, Float, Complex, named Alias, Comp, Enum: the words written *)
| CPtr (const : bool) (t : cty)                              (* TypeKind::Pointer *)
| CArr (t : cty) (len : N)                                   (* TypeKind::Array *)
| CFun (const : bool) (ret : cty) (args : list (option string * cty)).  (* TypeKind::Function *)

(* ------------------------------------------------------------------ printer *)

(* entries of `stack: &mut Vec<String>`:  name, "*", "*const ", "const " *)
Inductive sitem := SName (s : string) | SStar | SStarConst | SConst.

Definition emit_item (i : sitem) : list tok :=
  match i with
  | SName s => [lex_word s]
  | SStar => [TStar]
  | SStarConst => [TStar; TConst]
  | SConst => [TConst]
  end.

(* the stack is a list whose HEAD is the top: push = cons,
   `while let Some(item) = stack.pop() { write!(item) }` = pop_all *)
Definition pop_all (st : list sitem) : list tok := flat_map emit_item st.

(* serialize_sep(", ", ...) *)
Fixpoint sep_join (sep : list tok) (l : list (list tok)) : list tok :=
  match l with
  | [] => []
  | [x] => x
  | x :: r => x ++ sep ++ sep_join sep r
  end.

Definition const_toks (c : bool) : list tok := if c then [TConst] else [].

(* the end of `serialize` for Type: `if !stack.is_empty() { write " "; while let Some(item) = stack.pop() {..} }`
   result: the output so far, and the stack after the call *)
Definition trailer (out : list tok) (st : list sitem) : list tok * list sitem :=
  match st with
  | [] => (out, [])
  | _ :: _ => (out ++ pop_all st, [])
  end.

Definition param_stack (on : option string) : list sitem :=
  match on with Some n => [SName n] | None => [] end.

(* `impl CSerialize for Type`, state passing: the stack goes in and comes out *)
Fixpoint serialize_st (t : cty) (st : list sitem) {struct t} : list tok * list sitem :=
  match t with
  | CBase ws c =>
      trailer (const_toks c ++ map lex_word ws) st
  | CPtr c t' =>
      let st1 := (if c then SStarConst else SStar) :: st in
      let (out, st2) := serialize_st t' st1 in
      trailer out st2
  | CArr t' n =>
      let (out, st1) := serialize_st t' st in
      trailer (out ++ [TLBrk; TNum n; TRBrk]) st1
  | CFun c r args =>
      let st1 := if c then SConst :: st else st in
      let (o1, _) := serialize_st r [] in                       (* &mut vec![] *)
      let o2 := o1 ++ [TLPar] ++ pop_all st1 ++ [TRPar] in      (* stack is now empty *)
      let o3 :=
        match args with
        | [] => [TLPar; lex_word "void"; TRPar]
        | _ :: _ =>
            [TLPar] ++
            sep_join [TComma]
              (map (fun p => fst (serialize_st (snd p) (param_stack (fst p)))) args) ++
            [TRPar]
        end in
      trailer (o2 ++ o3) []
  end.

Definition serialize (t : cty) (st : list sitem) : list tok := fst (serialize_st t st).

(* ------------------------------------------------------------------ wrapper *)

Definition dec (n : nat) : string := NilEmpty.string_of_uint (Nat.to_uint n).

(* lines 85-114, idx_to_prune = None: unnamed arguments become arg_{count} *)
Fixpoint name_args (count : nat) (args : list (option string * cty)) : list (string * cty) :=
  match args with
  | [] => []
  | (Some n, t) :: r => (n, t) :: name_args count r
  | (None, t) :: r => (String.append "arg_" (dec count), t) :: name_args (S count) r
  end.

Definition param_names (args : list (option string * cty)) : list string :=
  map fst (name_args 0 args).

Definition serialize_args (args : list (string * cty)) : list tok :=
  match args with
  | [] => [lex_word "void"]
  | _ :: _ => sep_join [TComma] (map (fun p => serialize (snd p) [SName (fst p)]) args)
  end.

(* Type::is_void: matches!(self.kind, TypeKind::Void) — the const flag is ignored,
   typedefs of void are not looked through *)
Definition is_void (t : cty) : bool :=
  match t with
  | CBase [w] _ => String.eqb w "void"
  | _ => false
  end.

(* `impl CSerialize for Function`, wrap_as_variadic = None, called with an empty stack *)
Definition wrapper (name suffix : string) (ret : cty) (args : list (option string * cty))
  : list tok :=
  let a := name_args 0 args in
  serialize ret [] ++
  [lex_word (String.append name suffix); TLPar] ++ serialize_args a ++
  [TRPar; TLBrace] ++ (if is_void ret then [] else [TReturn]) ++
  [lex_word name; TLPar] ++ sep_join [TComma] (map (fun p => [lex_word (fst p)]) a) ++
  [TRPar; TSemi; TRBrace].

(* observers of the wrapper text *)
Fixpoint after_lbrace (ts : list tok) : list tok :=
  match ts with
  | [] => []
  | TLBrace :: r => r
  | _ :: r => after_lbrace r
  end.

Fixpoint before_lbrace (ts : list tok) : list tok :=
  match ts with
  | [] => []
  | TLBrace :: _ => []
  | t :: r => t :: before_lbrace r
  end.

Fixpoint idents_until_rpar (ts : list tok) : list string :=
  match ts with
  | TId s :: r => s :: idents_until_rpar r
  | TComma :: r => idents_until_rpar r
  | _ => []
  end.

(* the identifiers between "(" and ")" of the call statement in the body *)
Definition call_args (ts : list tok) : list string :=
  match after_lbrace ts with
  | TReturn :: _ :: TLPar :: r => idents_until_rpar r
  | _ :: TLPar :: r => idents_until_rpar r
  | _ => []
  end.

(* is the first statement of the body a `return`? *)
Definition body_returns (ts : list tok) : bool :=
  match after_lbrace ts with
  | TReturn :: _ => true
  | _ => false
  end.

(* ------------------------------------------------------------------ reader *)
(* Written from the grammar of C11 6.7.6 / 6.7.7, not from the printer.

     declaration      = specifiers declarator
     specifiers       = [const] ( (struct|union|enum) tag | typedef-name | keyword+ )
     declarator       = ( '*' [const] )* direct
     direct           = ( identifier | '(' declarator ')' | <empty, abstract> ) suffix*
     suffix           = '[' n ']' | '(' 'void' ')' | '(' param (',' param)* ')'
     param            = specifiers declarator

   The classic ambiguity (is an identifier a type name or a declared name?) is settled
   the way C settles it: by the set [td] of typedef names in scope.  Tags live in their
   own name space. *)

(* the specifier words the printer's fixed strings use (lines 227-291) *)
Definition type_keywords : list string :=
  ["void"; "nullptr_t"; "bool"; "signed"; "unsigned"; "char"; "wchar_t"; "short"; "int";
   "long"; "_Float16"; "float"; "double"; "__float128"; "complex"; "__complex128"].

Definition mem (s : string) (l : list string) : bool := existsb (String.eqb s) l.

Definition is_kw (s : string) : bool := mem s type_keywords.
Definition is_tag_kw (s : string) : bool := mem s ["struct"; "union"; "enum"].
Definition reserved (s : string) : bool :=
  is_kw s || is_tag_kw s || String.eqb s "const" || String.eqb s "return".

(* may s be a tag / an ordinary identifier *)
Definition tag_ok (s : string) : bool := negb (reserved s).
Definition ident_ok (td : list string) (s : string) : bool := negb (reserved s) && negb (mem s td).

(* declarators as syntax trees *)
Inductive dtor :=
| DName (o : option string)           (* identifier, or nothing (abstract) *)
| DPtr (c : bool) (d : dtor)          (* * [const] D *)
| DArr (d : dtor) (n : N)             (* D [n] *)
| DFun (d : dtor) (ps : list (option string * cty)).   (* D (params) *)

(* 6.7.6.1-3: the type and name that `T D` declares *)
Fixpoint apply_dtor (d : dtor) (base : cty) : option string * cty :=
  match d with
  | DName o => (o, base)
  | DPtr c d' => apply_dtor d' (CPtr c base)
  | DArr d' n => apply_dtor d' (CArr base n)
  | DFun d' ps => apply_dtor d' (CFun false base ps)
  end.

Fixpoint span_kw (ts : list tok) : list string * list tok :=
  match ts with
  | TId s :: r => if is_kw s then let (ws, r') := span_kw r in (s :: ws, r') else ([], ts)
  | _ => ([], ts)
  end.

Definition p_spec (td : list string) (ts : list tok) : option (cty * list tok) :=
  let (c, ts1) := match ts with TConst :: r => (true, r) | _ => (false, ts) end in
  match ts1 with
  | TId k :: r =>
      if is_tag_kw k then
        match r with
        | TId tag :: r' => if tag_ok tag then Some (CBase [k; tag] c, r') else None
        | _ => None
        end
      else if is_kw k then let (ws, r') := span_kw r in Some (CBase (k :: ws) c, r')
      else if mem k td then Some (CBase [k] c, r)
      else None
  | _ => None
  end.

(* does the token after '(' start a parenthesised declarator (rather than a parameter list)? *)
Definition starts_group (td : list string) (ts : list tok) : bool :=
  match ts with
  | TStar :: _ | TLPar :: _ | TLBrk :: _ => true
  | TId s :: _ => ident_ok td s
  | _ => false
  end.

Fixpoint p_dtor (td : list string) (f : nat) (ts : list tok) {struct f}
  : option (dtor * list tok) :=
  match f with
  | O => None
  | S f' =>
      match ts with
      | TStar :: TConst :: r =>
          match p_dtor td f' r with Some (d, r') => Some (DPtr true d, r') | None => None end
      | TStar :: r =>
          match p_dtor td f' r with Some (d, r') => Some (DPtr false d, r') | None => None end
      | TId s :: r =>
          if ident_ok td s then p_suffix td f' (DName (Some s)) r else None
      | TLPar :: r =>
          if starts_group td r then
            match p_dtor td f' r with
            | Some (d, TRPar :: r') => p_suffix td f' d r'
            | _ => None
            end
          else p_suffix td f' (DName None) ts
      | _ => p_suffix td f' (DName None) ts
      end
  end
with p_suffix (td : list string) (f : nat) (d : dtor) (ts : list tok) {struct f}
  : option (dtor * list tok) :=
  match f with
  | O => None
  | S f' =>
      match ts with
      | TLBrk :: TNum n :: TRBrk :: r => p_suffix td f' (DArr d n) r
      | TLPar :: r =>
          match p_params td f' r with
          | Some (ps, r') => p_suffix td f' (DFun d ps) r'
          | None => None
          end
      | _ => Some (d, ts)
      end
  end
with p_params (td : list string) (f : nat) (ts : list tok) {struct f}
  : option (list (option string * cty) * list tok) :=
  match f with
  | O => None
  | S f' =>
      match ts with
      | TId s :: TRPar :: r => if String.eqb s "void" then Some ([], r) else p_plist td f' ts
      | _ => p_plist td f' ts
      end
  end
with p_plist (td : list string) (f : nat) (ts : list tok) {struct f}
  : option (list (option string * cty) * list tok) :=
  match f with
  | O => None
  | S f' =>
      match p_spec td ts with
      | None => None
      | Some (b, r) =>
          match p_dtor td f' r with
          | None => None
          | Some (d, r') =>
              match r' with
              | TRPar :: r'' => Some ([apply_dtor d b], r'')
              | TComma :: r'' =>
                  match p_plist td f' r'' with
                  | Some (ps, r3) => Some (apply_dtor d b :: ps, r3)
                  | None => None
                  end
              | _ => None
              end
          end
      end
  end.

Definition denote_td (td : list string) (ts : list tok) : option (string * cty) :=
  match p_spec td ts with
  | None => None
  | Some (b, r) =>
      match p_dtor td (2 * List.length ts + 2) r with
      | Some (d, []) =>
          match apply_dtor d b with
          | (Some n, t) => Some (n, t)
          | (None, _) => None
          end
      | _ => None
      end
  end.

(* no typedef names in scope *)
Definition denote (ts : list tok) : option (string * cty) := denote_td [] ts.

(* ------------------------------------------------------------------ the good class *)

(* return types: the printer writes them with an EMPTY stack and puts the rest of the
   declarator after them, which is only right when nothing of the return type's own
   declarator has to come after that rest: pointers to ... to a base type *)
Fixpoint ptr_base (t : cty) : bool :=
  match t with
  | CBase _ _ => true
  | CPtr _ t' => ptr_base t'
  | _ => false
  end.

Definition is_some {A} (o : option A) : bool := match o with Some _ => true | None => false end.
Definition is_nil {A} (l : list A) : bool := match l with [] => true | _ => false end.

Fixpoint N_list_eqb (a b : list N) : bool :=
  match a, b with
  | [], [] => true
  | x :: a', y :: b' => N.eqb x y && N_list_eqb a' b'
  | _, _ => false
  end.

(* walking down from the declared object:
     named : is there a name at the bottom of the stack
     stars : has a pointer been pushed on the way
     ds    : the array lengths met on the way, outermost first
   The class is exact (Properties.decl_roundtrip_exact): under the side conditions the
   output reads back as the type iff simple_go says true.
     - an array is fine as long as no pointer has been pushed (arrays of pointers are
       right, pointers to arrays are not);
     - the array lengths must read the same in both directions, because "[a][b]" is
       written "[b][a]";
     - a function type must not be const ("const " would be popped in front of the "*"),
       needs a pointer or a name for its parentheses, must not sit under an array (the
       array suffix would land after the parameter list), and its return type must be
       pointers over a base type (it is written with an empty stack, in front). *)
Fixpoint simple_go (named stars : bool) (ds : list N) (t : cty) : bool :=
  match t with
  | CBase _ _ => N_list_eqb ds (rev ds)          (* "[a][b]" comes out as "[b][a]" *)
  | CPtr _ t' => simple_go named true ds t'
  | CArr t' n => negb stars && simple_go named false (ds ++ [n]) t'
  | CFun c r args =>
      negb c && (stars || named) && is_nil ds && ptr_base r &&
      forallb (fun p => simple_go (is_some (fst p)) false [] (snd p)) args
  end.

Definition simple (t : cty) : bool := simple_go true false [] t.
Definition simple_param (p : option string * cty) : bool :=
  simple_go (is_some (fst p)) false [] (snd p).

(* ------------------------------------------------------------------ side conditions *)

(* the words of a base type form a specifier list *)
Definition wf_words (td : list string) (ws : list string) : bool :=
  (negb (is_nil ws) && forallb is_kw ws) ||
  match ws with
  | [w] => mem w td && negb (reserved w)
  | [k; tag] => is_tag_kw k && tag_ok tag
  | _ => false
  end.

Definition wf_oname (td : list string) (on : option string) : bool :=
  match on with Some n => ident_ok td n | None => true end.

(* (void) means "no parameters" (6.7.6.3p10), so a sole unnamed `void` parameter is
   not a type of its own *)
Definition sole_void (args : list (option string * cty)) : bool :=
  match args with
  | [(None, CBase [w] false)] => String.eqb w "void"
  | _ => false
  end.

Fixpoint wf_ty (td : list string) (t : cty) : bool :=
  match t with
  | CBase ws _ => wf_words td ws
  | CPtr _ t' => wf_ty td t'
  | CArr t' _ => wf_ty td t'
  | CFun _ r args =>
      wf_ty td r && negb (sole_void args) &&
      forallb (fun p => wf_oname td (fst p) && wf_ty td (snd p)) args
  end.

Definition wf_names_td (td : list string) (t : cty) (n : string) : Prop :=
  ident_ok td n = true /\ wf_ty td t = true.

Definition wf_names (t : cty) (n : string) : Prop := wf_names_td [] t n.

(* side conditions for the wrapper *)
Definition plain_word (s : string) : bool :=
  negb (String.eqb s "const") && negb (String.eqb s "return").

Definition wf_wrapper (td : list string) (name suffix : string) (ret : cty)
           (args : list (option string * cty)) : Prop :=
  ident_ok td (String.append name suffix) = true /\
  ptr_base ret = true /\ wf_ty td ret = true /\
  forallb (fun p => ident_ok td (fst p) && simple (snd p) && wf_ty td (snd p))
          (name_args 0 args) = true.

(* every word the printer passes through the lexer for a type: specifier words and
   parameter names *)
Fixpoint cty_words (t : cty) : list string :=
  match t with
  | CBase ws _ => ws
  | CPtr _ t' => cty_words t'
  | CArr t' _ => cty_words t'
  | CFun _ r args =>
      cty_words r ++
      flat_map (fun p => match fst p with Some n => [n] | None => [] end ++ cty_words (snd p)) args
  end.

(* nothing in the wrapper text is spelled `return` except the keyword itself *)
Definition no_return_words (name suffix : string) (ret : cty)
           (args : list (option string * cty)) : bool :=
  forallb (fun s => negb (String.eqb s "return"))
          (name :: String.append name suffix :: cty_words ret ++
           flat_map (fun p => fst p :: cty_words (snd p)) (name_args 0 args)).

(* ------------------------------------------------------------------ vocabulary of the proofs *)

Definition ptr_item (c : bool) : sitem := if c then SStarConst else SStar.

(* a stack met while printing: the pointers pushed so far (top first) over the name *)
Definition stack (cs : list bool) (on : option string) : list sitem :=
  map ptr_item cs ++ param_stack on.

Definition name_toks (on : option string) : list tok :=
  match on with Some n => [lex_word n] | None => [] end.

(* cs is in stack order: the head is the innermost pointer *)
Fixpoint ptrs (cs : list bool) (t : cty) : cty :=
  match cs with [] => t | c :: r => ptrs r (CPtr c t) end.

(* ds outermost first *)
Fixpoint arrays (ds : list N) (t : cty) : cty :=
  match ds with [] => t | d :: r => CArr (arrays r t) d end.

Definition brks (ds : list N) : list tok := flat_map (fun n => [TLBrk; TNum n; TRBrk]) ds.

Fixpoint ptrwrap (cs : list bool) (d : dtor) : dtor :=
  match cs with [] => d | c :: r => DPtr c (ptrwrap r d) end.

Fixpoint arrwrap (ds : list N) (d : dtor) : dtor :=
  match ds with [] => d | n :: r => arrwrap r (DArr d n) end.

Definition params_toks (args : list (option string * cty)) : list tok :=
  match args with
  | [] => [TLPar; lex_word "void"; TRPar]
  | _ :: _ =>
      [TLPar] ++
      sep_join [TComma] (map (fun p => serialize (snd p) (param_stack (fst p))) args) ++
      [TRPar]
  end.

(* what may follow a complete declaration *)
Definition follow_ok (ts : list tok) : bool :=
  match ts with [] | TComma :: _ | TRPar :: _ => true | _ => false end.
(* the next token is not a specifier keyword *)
Definition nokw_head (ts : list tok) : bool :=
  match ts with TId s :: _ => negb (is_kw s) | _ => true end.
(* the next token is not `const` *)
Definition nc_head (ts : list tok) : bool :=
  match ts with TConst :: _ => false | _ => true end.
(* the next token cannot start a non-abstract declarator *)
Definition abs_head (ts : list tok) : bool :=
  match ts with [] | TLBrk :: _ | TRPar :: _ | TComma :: _ => true | _ => false end.

Definition not_lbrace (t : tok) : bool := match t with TLBrace => false | _ => true end.
Definition not_return (t : tok) : bool := match t with TReturn => false | _ => true end.
Definition is_punct (t : tok) : bool :=
  match t with
  | TNum _ | TStar | TLPar | TRPar | TLBrk | TRBrk | TComma | TConst => true
  | _ => false
  end.

(* "the reader accepts ts as a declaration of (on, T), stops in front of rest" *)
Definition reads (td : list string) (f : nat) (ts : list tok)
           (on : option string) (T : cty) (rest : list tok) : Prop :=
  exists b r d, p_spec td ts = Some (b, r) /\ p_dtor td f r = Some (d, rest) /\
                apply_dtor d b = (on, T).

(* the invariant proved by induction on the type: whatever pointers are already on the
   stack and whatever array suffixes are still owed, a type in the good class is read
   back as itself *)
Definition reads_ok (t : cty) : Prop :=
  forall td cs on ds rest f,
    simple_go (is_some on) (negb (is_nil cs)) ds t = true ->
    wf_ty td t = true -> wf_oname td on = true -> follow_ok rest = true ->
    2 * List.length (serialize t (stack cs on) ++ brks (rev ds)) + 2 <= f ->
    reads td f (serialize t (stack cs on) ++ brks (rev ds) ++ rest)
          on (arrays ds (ptrs cs t)) rest.

Definition ser_param (p : option string * cty) : list tok :=
  serialize (snd p) (param_stack (fst p)).

(* the two halves of the wrapper text, around the "{" *)
Definition wrapper_head (name suffix : string) (ret : cty) (args : list (option string * cty))
  : list tok :=
  serialize ret [] ++ [lex_word (String.append name suffix); TLPar] ++
  serialize_args (name_args 0 args) ++ [TRPar].

Definition wrapper_body (name : string) (ret : cty) (args : list (option string * cty))
  : list tok :=
  (if is_void ret then [] else [TReturn]) ++
  [lex_word name; TLPar] ++
  sep_join [TComma] (map (fun p => [lex_word (fst p)]) (name_args 0 args)) ++
  [TRPar; TSemi; TRBrace].

(* the parameters as the wrapper declares them: all named *)
Definition named_args (args : list (option string * cty)) : list (option string * cty) :=
  map (fun p => (Some (fst p), snd p)) (name_args 0 args).

(* ------------------------------------------------------------------ what the output denotes, for EVERY type *)

Definition map_opt {A B} (f : A -> option B) : list A -> option (list B) :=
  fix go (l : list A) : option (list B) :=
    match l with
    | [] => Some []
    | x :: r =>
        match f x, go r with
        | Some y, Some ys => Some (y :: ys)
        | _, _ => None
        end
    end.

(* The type the reader finds in the printer's output (None: the output is not a
   declaration).  Same walk as the printer: cs = pointers pushed so far (top first),
   ds = array lengths met so far (outermost first).
     - down to a base type, every array ends up OUTSIDE every pointer, and the array
       lengths come out in reverse order;
     - down to a function type, the arrays met on the way end up in the RETURN type;
       nothing is readable if the function type is const, if there is neither a pointer
       nor a name to put in the parentheses, or if the return type is anything but
       pointers over a base type. *)
Fixpoint printed_as (named : bool) (cs : list bool) (ds : list N) (t : cty) : option cty :=
  match t with
  | CBase _ _ => Some (arrays (rev ds) (ptrs cs t))
  | CPtr c t' => printed_as named (c :: cs) ds t'
  | CArr t' n => printed_as named cs (ds ++ [n]) t'
  | CFun c r args =>
      if c || (is_nil cs && negb named) || negb (ptr_base r) then None
      else
        match map_opt (fun p =>
                 match printed_as (is_some (fst p)) [] [] (snd p) with
                 | Some T => Some (fst p, T)
                 | None => None
                 end) args with
        | Some args' => Some (ptrs cs (CFun false (arrays (rev ds) r) args'))
        | None => None
        end
  end.

Definition rd_param (p : option string * cty) : option (option string * cty) :=
  match printed_as (is_some (fst p)) [] [] (snd p) with
  | Some T => Some (fst p, T)
  | None => None
  end.

(* specifiers + declarator, as one step of the reader *)
Definition p_decl (td : list string) (f : nat) (ts : list tok)
  : option ((option string * cty) * list tok) :=
  match p_spec td ts with
  | None => None
  | Some (b, r) =>
      match p_dtor td f r with
      | None => None
      | Some (d, r') => Some (apply_dtor d b, r')
      end
  end.

(* the stack as the Function arm pops it *)
Definition cst (c : bool) (st : list sitem) : list sitem := if c then SConst :: st else st.

(* heads that cannot start a specifier list *)
Definition bad_spec_head (td : list string) (ts : list tok) : bool :=
  match ts with
  | TId k :: _ => negb (is_tag_kw k) && negb (is_kw k) && negb (mem k td)
  | TConst :: _ => false
  | _ => true
  end.

(* the full characterisation, as an invariant over the walk *)
Definition reads_char (t : cty) : Prop :=
  forall td cs on ds rest f,
    wf_ty td t = true -> wf_oname td on = true -> follow_ok rest = true ->
    2 * List.length (serialize t (stack cs on) ++ brks (rev ds) ++ rest) + 2 <= f ->
    p_decl td f (serialize t (stack cs on) ++ brks (rev ds) ++ rest) =
    match printed_as (is_some on) cs ds t with
    | Some T => Some ((on, T), rest)
    | None => None
    end.

(* a return type that is not pointers-over-base makes the whole declaration unreadable *)
Definition ret_rejected (r : cty) : Prop :=
  forall td cs1 ds1 c cs on Y f,
    wf_ty td r = true -> wf_oname td on = true ->
    ptr_base r = false \/ ds1 <> [] ->
    2 * List.length (serialize r (stack cs1 None) ++ brks (rev ds1) ++
                     TLPar :: pop_all (cst c (stack cs on)) ++ TRPar :: Y) + 2 <= f ->
    p_decl td f (serialize r (stack cs1 None) ++ brks (rev ds1) ++
                 TLPar :: pop_all (cst c (stack cs on)) ++ TRPar :: Y) = None.

(* the declarator spine of a type *)
Inductive frame := FPtr (c : bool) | FArr (n : N).

Fixpoint spine (t : cty) : list frame :=
  match t with
  | CPtr c t' => FPtr c :: spine t'
  | CArr t' n => FArr n :: spine t'
  | _ => []
  end.

Fixpoint core (t : cty) : cty :=
  match t with
  | CPtr _ t' => core t'
  | CArr t' _ => core t'
  | _ => t
  end.

Fixpoint plug (sp : list frame) (k : cty) : cty :=
  match sp with
  | [] => k
  | FPtr c :: r => CPtr c (plug r k)
  | FArr n :: r => CArr (plug r k) n
  end.

Fixpoint sp_arrs (sp : list frame) : list N :=
  match sp with [] => [] | FArr n :: r => n :: sp_arrs r | FPtr _ :: r => sp_arrs r end.

Fixpoint sp_ptrs (sp : list frame) : list bool :=
  match sp with [] => [] | FPtr c :: r => c :: sp_ptrs r | FArr _ :: r => sp_ptrs r end.

(* no array below a pointer *)
Fixpoint arrs_ok (stars : bool) (sp : list frame) : bool :=
  match sp with
  | [] => true
  | FPtr _ :: r => arrs_ok true r
  | FArr _ :: r => negb stars && arrs_ok false r
  end.

(* ------------------------------------------------------------------ values used in the examples *)

Local Open Scope N_scope.

Definition ex_int := CBase ["int"] false.
Definition ex_char := CBase ["char"] false.
Definition ex_void := CBase ["void"] false.
(* const unsigned long * ( *const cb)(struct S *s, void ( * )(void), char [4], int [3][3]) *)
Definition ex_cb : cty :=
  CPtr true (CFun false (CPtr false (CBase ["unsigned"; "long"] true))
    [(Some "s", CPtr false (CBase ["struct"; "S"] false));
     (None, CPtr false (CFun false ex_void []));
     (None, CArr ex_char 4);
     (Some "m", CArr (CArr ex_int 3) 3)]).
Definition ex_args : list (option string * cty) :=
  [(Some "a", ex_int); (None, ex_char); (Some "b", CPtr false ex_void); (None, ex_int)].
