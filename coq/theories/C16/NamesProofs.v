(* C16 — the names [name_args c] produces are the C names, in place, and [gen c], [gen (c+1)], ...
   for the unnamed parameters in turn; [gen] is injective because the decimal printer is. *)
From Coq Require Import List String Bool FinFun Permutation DecimalString DecimalNat.
From BG Require Import C16.Model C16.Names.
Import ListNotations.
Open Scope string_scope.

Lemma dec_inj : forall a b, dec a = dec b -> a = b.
Proof.
  intros a b H. unfold dec in H.
  apply Unsigned.to_uint_inj.
  pose proof (NilEmpty.usu (Nat.to_uint a)) as Ha.
  pose proof (NilEmpty.usu (Nat.to_uint b)) as Hb.
  rewrite H in Ha. rewrite Ha in Hb. now inversion Hb.
Qed.

Definition gen (k : nat) : string := String.append "arg_" (dec k).

Lemma gen_inj : forall a b, gen a = gen b -> a = b.
Proof.
  intros a b H. unfold gen in H. simpl in H.
  apply dec_inj. now inversion H.
Qed.

Lemma named_some : forall n t r, named ((Some n, t) :: r) = n :: named r.
Proof. reflexivity. Qed.

Lemma named_none : forall t r, named ((None, t) :: r) = named r.
Proof. reflexivity. Qed.

Lemma unnamed_some : forall n t r, unnamed_count ((Some n, t) :: r) = unnamed_count r.
Proof. reflexivity. Qed.

Lemma unnamed_none : forall t r, unnamed_count ((None, t) :: r) = S (unnamed_count r).
Proof. reflexivity. Qed.

Lemma unnamed_repeat : forall t n, unnamed_count (repeat (None, t) n) = n.
Proof.
  intros t n. induction n as [|n IH].
  - reflexivity.
  - change (repeat (None, t) (S n)) with ((@None string, t) :: repeat (None, t) n).
    rewrite unnamed_none. now rewrite IH.
Qed.

Lemma named_repeat : forall t n, named (repeat (None, t) n) = [].
Proof.
  intros t n. induction n as [|n IH].
  - reflexivity.
  - change (repeat (None, t) (S n)) with ((@None string, t) :: repeat (None, t) n).
    now rewrite named_none.
Qed.

Lemma is_generated_In : forall s n, is_generated s n = true <-> In s (map gen (seq 0 n)).
Proof.
  intros s n. unfold is_generated. rewrite existsb_exists, in_map_iff.
  split; intros [k [H1 H2]]; exists k.
  - apply String.eqb_eq in H2. now split.
  - split; [exact H2|]. now apply String.eqb_eq.
Qed.

Lemma name_args_perm : forall args c,
  Permutation (map fst (name_args c args)) (named args ++ map gen (seq c (unnamed_count args))).
Proof.
  induction args as [|[[n|] t] r IH]; intros c.
  - constructor.
  - change (map fst (name_args c ((Some n, t) :: r))) with (n :: map fst (name_args c r)).
    rewrite named_some, unnamed_some. cbn [app]. now constructor.
  - change (map fst (name_args c ((None, t) :: r))) with (gen c :: map fst (name_args (S c) r)).
    rewrite named_none, unnamed_none, (IH (S c)). apply Permutation_middle.
Qed.

Lemma NoDup_app_l : forall (A : Type) (g a : list A), NoDup g ->
  (NoDup (a ++ g) <-> NoDup a /\ Forall (fun x => ~ In x g) a).
Proof.
  intros A g a Hg. induction a as [|x a IH]; cbn [app].
  - split; [intros _; split; constructor|intros _; exact Hg].
  - rewrite !NoDup_cons_iff, Forall_cons_iff, IH, in_app_iff. tauto.
Qed.

(* the generated names arg_0 .. arg_{u-1} are the only ones a C parameter must avoid *)
Theorem param_names_nodup_iff : forall args,
  NoDup (param_names args) <->
  NoDup (named args) /\
  forallb (fun n => negb (is_generated n (unnamed_count args))) (named args) = true.
Proof.
  intros args. unfold param_names.
  rewrite name_args_perm, NoDup_app_l by (apply Injective_map_NoDup; [exact gen_inj|apply seq_NoDup]).
  rewrite Forall_forall, forallb_forall. apply and_iff_compat_l.
  split; intros H s Hin; specialize (H s Hin).
  - rewrite <- is_generated_In in H. destruct (is_generated s _); [now elim H|reflexivity].
  - rewrite <- is_generated_In. destruct (is_generated s _); [discriminate H|discriminate].
Qed.

Lemma name_args_length : forall args c, List.length (name_args c args) = List.length args.
Proof.
  induction args as [|[[n|] t] r IH]; intros c; simpl; [reflexivity | |]; now rewrite IH.
Qed.

Lemma name_args_keep : forall args c i n t,
  nth_error args i = Some (Some n, t) ->
  nth_error (map fst (name_args c args)) i = Some n.
Proof.
  induction args as [|[[m|] u] r IH]; intros c i n t H.
  - destruct i; discriminate.
  - destruct i as [|i]; simpl in *.
    + now inversion H.
    + eapply IH; eassumption.
  - destruct i as [|i]; simpl in *.
    + discriminate.
    + eapply IH; eassumption.
Qed.
