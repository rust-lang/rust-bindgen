(* C16 — what a C reader makes of the text written by `impl CSerialize for Type` and, for
   a wrapper, by `impl CSerialize for Function`. *)
From Coq Require Import NArith String List Bool Lia.
From BG Require Import C16.Model C16.Proofs.
Import ListNotations.
Open Scope string_scope.
Open Scope list_scope.

(* every call of Type::serialize leaves the stack empty, so behind the recursive calls of
   the Array, Pointer and Function arms the final `if !stack.is_empty()` writes nothing *)
Theorem serialize_st_stack_empty : forall t st, snd (serialize_st t st) = [].
Proof. intros t st. now rewrite serialize_st_eq. Qed.
Print Assumptions serialize_st_stack_empty.

(* hence the printer is this recursion *)
Theorem ser_base : forall ws c st,
  serialize (CBase ws c) st = const_toks c ++ map lex_word ws ++ pop_all st.
Proof. exact Proofs.ser_base. Qed.
Print Assumptions ser_base.

Theorem ser_ptr : forall c t st,
  serialize (CPtr c t) st = serialize t (ptr_item c :: st).
Proof. exact Proofs.ser_ptr. Qed.
Print Assumptions ser_ptr.

Theorem ser_arr : forall t n st,
  serialize (CArr t n) st = serialize t st ++ [TLBrk; TNum n; TRBrk].
Proof. exact Proofs.ser_arr. Qed.
Print Assumptions ser_arr.

Theorem ser_fun : forall c r args st,
  serialize (CFun c r args) st =
  serialize r [] ++ [TLPar] ++ pop_all (if c then SConst :: st else st) ++ [TRPar] ++
  params_toks args.
Proof. exact Proofs.ser_fun. Qed.
Print Assumptions ser_fun.

(* what the reader finds in the output, for EVERY well-formed type, with any pointers
   already pushed and any array suffixes still owed; and: a return type that is not
   pointers over a base type makes the declaration unreadable *)
Theorem reads_char_all : forall t, reads_char t /\ ret_rejected t.
Proof.
  intros t. split; [|apply ret_rejected_all].
  intros td cs on ds rest f Hwf Hon Hrest Hf. apply (reads_follow t (reads_as_all t)); try assumption.
  rewrite !app_length in *. lia.
Qed.
Print Assumptions reads_char_all.

(* at the top of the walk, with the name alone on the stack *)
Theorem decl_reading_td : forall td t n,
  wf_names_td td t n ->
  denote_td td (serialize t [SName n]) =
  match printed_as true [] [] t with Some T => Some (n, T) | None => None end.
Proof. exact Proofs.decl_reading_td. Qed.
Print Assumptions decl_reading_td.

Theorem decl_reading : forall t n,
  wf_names t n ->
  denote (serialize t [SName n]) =
  match printed_as true [] [] t with Some T => Some (n, T) | None => None end.
Proof. intros t n. apply decl_reading_td. Qed.
Print Assumptions decl_reading.

(* [simple] is "printed as itself"; no side condition *)
Theorem simple_iff_printed : forall t,
  simple t = true <-> printed_as true [] [] t = Some t.
Proof.
  intros t. split.
  - exact (simple_printed t true [] []).
  - exact (printed_simple t true []).
Qed.
Print Assumptions simple_iff_printed.

(* so the round trip holds on [simple] and nowhere else *)
Theorem decl_roundtrip_exact_td : forall td t n,
  wf_names_td td t n ->
  (denote_td td (serialize t [SName n]) = Some (n, t) <-> simple t = true).
Proof. exact Proofs.decl_roundtrip_exact_td. Qed.
Print Assumptions decl_roundtrip_exact_td.

Theorem decl_roundtrip_exact : forall t n,
  wf_names t n -> (denote (serialize t [SName n]) = Some (n, t) <-> simple t = true).
Proof. intros t n. apply decl_roundtrip_exact_td. Qed.
Print Assumptions decl_roundtrip_exact.

Theorem decl_roundtrip_partial_td : forall td t n,
  simple t = true -> wf_names_td td t n ->
  denote_td td (serialize t [SName n]) = Some (n, t).
Proof. intros td t n Hs Hwf. now apply decl_roundtrip_exact_td. Qed.
Print Assumptions decl_roundtrip_partial_td.

Theorem decl_roundtrip_partial : forall t n,
  simple t = true -> wf_names t n -> denote (serialize t [SName n]) = Some (n, t).
Proof. exact Proofs.decl_roundtrip_partial. Qed.
Print Assumptions decl_roundtrip_partial.

(* inside the class the invariant reads: any pointers already pushed, any array suffixes
   still owed, named or not, in front of anything that may follow a declaration *)
Theorem reads_ok_all : forall t, reads_ok t.
Proof.
  intros t td cs on ds rest f Hs Hwf Hon Hrest Hf.
  apply reads_p_decl. rewrite (reads_follow t (reads_as_all t)) by assumption.
  now rewrite (simple_printed t _ cs ds Hs).
Qed.
Print Assumptions reads_ok_all.

(* outside the class the reading differs or fails (DESIGN.md, finding F6) *)
Theorem decl_roundtrip_refuted :
  (exists t n, wf_names t n /\ denote (serialize t [SName n]) <> Some (n, t)) /\
  (* pointer to array of 3 int comes out as `int * p [3]`: an array of three pointers *)
  (wf_names (CPtr false (CArr (CBase ["int"] false) 3)) "p" /\
   denote (serialize (CPtr false (CArr (CBase ["int"] false) 3)) [SName "p"]) =
   Some ("p", CArr (CPtr false (CBase ["int"] false)) 3)) /\
  (* pointer to function(int) returning pointer to function(char) returning int comes
     out as `int ( * ) (char) ( * f) (int)`: not a declaration *)
  (wf_names (CPtr false (CFun false (CPtr false (CFun false (CBase ["int"] false)
                                                      [(None, CBase ["char"] false)]))
                              [(None, CBase ["int"] false)])) "f" /\
   denote (serialize (CPtr false (CFun false (CPtr false (CFun false (CBase ["int"] false)
                                                      [(None, CBase ["char"] false)]))
                              [(None, CBase ["int"] false)])) [SName "f"]) = None) /\
  (* int m[2][3] comes out as `int m [3] [2]` *)
  (wf_names (CArr (CArr (CBase ["int"] false) 3) 2) "m" /\
   denote (serialize (CArr (CArr (CBase ["int"] false) 3) 2) [SName "m"]) =
   Some ("m", CArr (CArr (CBase ["int"] false) 2) 3)) /\
  (* array of 3 pointers to function comes out as `int ( * a) (int) [3]`: a pointer to a
     function returning an array *)
  (wf_names (CArr (CPtr false (CFun false (CBase ["int"] false) [(None, CBase ["int"] false)])) 3) "a" /\
   denote (serialize (CArr (CPtr false (CFun false (CBase ["int"] false)
                                             [(None, CBase ["int"] false)])) 3) [SName "a"]) =
   Some ("a", CPtr false (CFun false (CArr (CBase ["int"] false) 3) [(None, CBase ["int"] false)]))).
Proof. exact Proofs.decl_roundtrip_refuted. Qed.
Print Assumptions decl_roundtrip_refuted.

Theorem args_forwarded_in_order : forall name suf ret args,
  forallb plain_word (param_names args) = true ->
  call_args (wrapper name suf ret args) = param_names args.
Proof. exact Proofs.args_forwarded_in_order. Qed.
Print Assumptions args_forwarded_in_order.

(* `return` is the first token of the body exactly when Type::is_void says no *)
Theorem wrapper_return_first : forall name suf ret args,
  String.eqb name "return" = false ->
  body_returns (wrapper name suf ret args) = negb (is_void ret).
Proof.
  intros name suf ret args Hn. unfold body_returns.
  rewrite wrapper_split, after_lbrace_app by apply wrapper_head_no_lbrace.
  unfold wrapper_body. destruct (is_void ret); cbn [app negb]; [|reflexivity].
  unfold lex_word. rewrite Hn. destruct (String.eqb name "const"); reflexivity.
Qed.
Print Assumptions wrapper_return_first.

Theorem wrapper_returns_iff_nonvoid : forall name suf ret args,
  no_return_words name suf ret args = true ->
  (In TReturn (wrapper name suf ret args) <-> is_void ret = false).
Proof.
  intros name suf ret args Hnr. rewrite wrapper_split. split.
  - intros Hin. destruct (is_void ret) eqn:Hv; [exfalso|reflexivity].
    destruct (wrapper_no_return name suf ret args Hnr) as [Hh Hb]. specialize (Hb Hv).
    rewrite forallb_forall in Hh, Hb.
    apply in_app_or in Hin as [Hin|[Hin|Hin]].
    + discriminate (Hh _ Hin).
    + discriminate Hin.
    + discriminate (Hb _ Hin).
  - intros Hv. unfold wrapper_body. rewrite Hv. apply in_or_app. right. right. left. reflexivity.
Qed.
Print Assumptions wrapper_returns_iff_nonvoid.

Theorem wrapper_name_is_suffixed_td : forall td name suf ret args,
  wf_wrapper td name suf ret args ->
  denote_td td (before_lbrace (wrapper name suf ret args)) =
  Some (String.append name suf, CFun false ret (named_args args)).
Proof.
  intros td name suf ret args [Hns [Hpb [Hwr Hargs]]].
  destruct (wf_wrapper_params td _ Hargs) as [Hwf Hs].
  rewrite wrapper_head_reading by assumption.
  now rewrite (simple_params_printed (named_args args) Hs).
Qed.
Print Assumptions wrapper_name_is_suffixed_td.

Theorem wrapper_name_is_suffixed : forall name suf ret args,
  wf_wrapper [] name suf ret args ->
  denote (before_lbrace (wrapper name suf ret args)) =
  Some (String.append name suf, CFun false ret (named_args args)).
Proof. intros name suf ret args. apply wrapper_name_is_suffixed_td. Qed.
Print Assumptions wrapper_name_is_suffixed.

Theorem decl_roundtrip_partial_nonvacuous :
  simple ex_cb = true /\ wf_names ex_cb "cb" /\
  serialize ex_cb [SName "cb"] =
    [TConst; TId "unsigned"; TId "long"; TStar; TLPar; TStar; TConst; TId "cb"; TRPar;
     TLPar; TId "struct"; TId "S"; TStar; TId "s"; TComma;
            TId "void"; TLPar; TStar; TRPar; TLPar; TId "void"; TRPar; TComma;
            TId "char"; TLBrk; TNum 4; TRBrk; TComma;
            TId "int"; TId "m"; TLBrk; TNum 3; TRBrk; TLBrk; TNum 3; TRBrk; TRPar] /\
  denote (serialize ex_cb [SName "cb"]) = Some ("cb", ex_cb).
Proof. exact Proofs.decl_roundtrip_partial_nonvacuous. Qed.
Print Assumptions decl_roundtrip_partial_nonvacuous.

(* typedef names are read with the typedef environment *)
Theorem decl_roundtrip_typedef_nonvacuous :
  let t := CArr (CPtr false (CBase ["size_t"] true)) 4 in
  simple t = true /\ wf_names_td ["size_t"] t "v" /\
  denote_td ["size_t"] (serialize t [SName "v"]) = Some ("v", t) /\
  denote (serialize t [SName "v"]) = None.
Proof. exact Proofs.decl_roundtrip_typedef_nonvacuous. Qed.
Print Assumptions decl_roundtrip_typedef_nonvacuous.

(* every conjunct of [simple] is needed: a type violating only that conjunct, and what
   the reader makes of the output *)
Theorem simple_conjuncts_needed :
  (* array under a pointer *)
  denote (serialize (CPtr false (CArr ex_int 3)) [SName "p"]) = Some ("p", CArr (CPtr false ex_int) 3) /\
  (* array lengths not a palindrome *)
  denote (serialize (CArr (CArr ex_int 3) 2) [SName "m"]) = Some ("m", CArr (CArr ex_int 2) 3) /\
  (* const-qualified function type: "const " is pushed and comes out before the star *)
  serialize (CPtr false (CFun true ex_int [(None, ex_int)])) [SName "fp"] =
    [TId "int"; TLPar; TConst; TStar; TId "fp"; TRPar; TLPar; TId "int"; TRPar] /\
  denote (serialize (CPtr false (CFun true ex_int [(None, ex_int)])) [SName "fp"]) = None /\
  (* unnamed parameter of bare function type: "int () (void)" *)
  denote (serialize (CFun false ex_int [(None, CFun false ex_int [])]) [SName "f"]) = None /\
  (* array of pointers to function *)
  denote (serialize (CArr (CPtr false (CFun false ex_int [(None, ex_int)])) 3) [SName "a"]) =
    Some ("a", CPtr false (CFun false (CArr ex_int 3) [(None, ex_int)])) /\
  (* function returning pointer to function (smallest: no parameters anywhere) *)
  serialize (CFun false (CPtr false (CFun false ex_int [])) []) [SName "f"] =
    [TId "int"; TLPar; TStar; TRPar; TLPar; TId "void"; TRPar;
     TLPar; TId "f"; TRPar; TLPar; TId "void"; TRPar] /\
  denote (serialize (CFun false (CPtr false (CFun false ex_int [])) []) [SName "f"]) = None /\
  (* function returning array: not C, but it shows the return type must be pointers over a base *)
  denote (serialize (CFun false (CArr ex_int 3) []) [SName "f"]) = None /\
  (* a parameter outside the class *)
  denote (serialize (CFun false ex_int [(Some "p", CPtr false (CArr ex_int 3))]) [SName "f"]) =
    Some ("f", CFun false ex_int [(Some "p", CArr (CPtr false ex_int) 3)]).
Proof. exact Proofs.simple_conjuncts_needed. Qed.
Print Assumptions simple_conjuncts_needed.

(* the side conditions are needed, kind by kind (of the reserved words `return` is not shown) *)
Theorem wf_conjuncts_needed :
  (* declared name is a specifier keyword / const / a typedef name / a tag keyword *)
  simple ex_int = true /\
  denote (serialize ex_int [SName "long"]) = None /\
  denote (serialize ex_int [SName "const"]) = None /\
  denote_td ["T"] (serialize ex_int [SName "T"]) = None /\
  denote (serialize ex_int [SName "struct"]) = None /\
  (* base words that are not a specifier list *)
  denote (serialize (CBase ["foo"] false) [SName "x"]) = None /\
  denote (serialize (CBase [] false) [SName "x"]) = None /\
  denote (serialize (CBase ["struct"; "int"] false) [SName "x"]) = None /\
  (* a typedef name spelled `const` *)
  denote_td ["const"] (serialize (CBase ["const"] false) [SName "x"]) = None /\
  (* parameter name that is a keyword *)
  denote (serialize (CFun false ex_int [(Some "int", ex_char)]) [SName "f"]) =
    Some ("f", CFun false ex_int [(None, CBase ["char"; "int"] false)]) /\
  (* the sole unnamed void parameter *)
  simple (CFun false ex_int [(None, ex_void)]) = true /\
  denote (serialize (CFun false ex_int [(None, ex_void)]) [SName "f"]) =
    Some ("f", CFun false ex_int []).
Proof. exact Proofs.wf_conjuncts_needed. Qed.
Print Assumptions wf_conjuncts_needed.

Theorem wrapper_nonvacuous :
  wrapper "foo" "__extern" ex_int ex_args =
    [TId "int"; TId "foo__extern"; TLPar; TId "int"; TId "a"; TComma; TId "char"; TId "arg_0";
     TComma; TId "void"; TStar; TId "b"; TComma; TId "int"; TId "arg_1"; TRPar; TLBrace;
     TReturn; TId "foo"; TLPar; TId "a"; TComma; TId "arg_0"; TComma; TId "b"; TComma;
     TId "arg_1"; TRPar; TSemi; TRBrace] /\
  param_names ex_args = ["a"; "arg_0"; "b"; "arg_1"] /\
  forallb plain_word (param_names ex_args) = true /\
  call_args (wrapper "foo" "__extern" ex_int ex_args) = ["a"; "arg_0"; "b"; "arg_1"] /\
  wf_wrapper [] "foo" "__extern" ex_int ex_args /\
  no_return_words "foo" "__extern" ex_int ex_args = true /\
  denote (before_lbrace (wrapper "foo" "__extern" ex_int ex_args)) =
    Some ("foo__extern",
          CFun false ex_int [(Some "a", ex_int); (Some "arg_0", ex_char);
                             (Some "b", CPtr false ex_void); (Some "arg_1", ex_int)]) /\
  wrapper "g" "_w" (CBase ["void"] true) [] =
    [TConst; TId "void"; TId "g_w"; TLPar; TId "void"; TRPar; TLBrace;
     TId "g"; TLPar; TRPar; TSemi; TRBrace].
Proof. exact Proofs.wrapper_nonvacuous. Qed.
Print Assumptions wrapper_nonvacuous.

(* the side conditions of the wrapper theorems are needed *)
Theorem wrapper_conditions_needed :
  (* a parameter called `return` is not forwarded as an identifier *)
  call_args (wrapper "f" "_w" ex_int [(Some "return", ex_int); (Some "x", ex_int)]) = [] /\
  (* a void function called `return`: the body starts with the keyword *)
  body_returns (wrapper "return" "_w" ex_void []) = true /\
  In TReturn (wrapper "return" "_w" ex_void []) /\
  (* a typedef of void is not void for Type::is_void: the wrapper says `return` *)
  body_returns (wrapper "f" "_w" (CBase ["V"] false) []) = true /\
  (* return type outside pointers-over-base: the text before "{" is not a declaration *)
  wrapper_head "g" "_w" (CPtr false (CFun false ex_int [(None, ex_char)])) [(None, ex_int)] =
    [TId "int"; TLPar; TStar; TRPar; TLPar; TId "char"; TRPar; TId "g_w"; TLPar;
     TId "int"; TId "arg_0"; TRPar] /\
  denote (before_lbrace (wrapper "g" "_w" (CPtr false (CFun false ex_int [(None, ex_char)]))
                                 [(None, ex_int)])) = None /\
  (* a named parameter can collide with a generated name *)
  param_names [(Some "arg_0", ex_int); (None, ex_char)] = ["arg_0"; "arg_0"].
Proof. exact Proofs.wrapper_conditions_needed. Qed.
Print Assumptions wrapper_conditions_needed.
