(* C16 — the theory.  The printer is brought into equations ([ser_base] to [fun_toks]),
   the reader into one equation per step with the fuel written out ([p_dtor_star] to
   [p_plist_none]); they meet in [reads_as_all], by induction on the type: on the printer's
   output for t the reader returns [printed_as t].  [simple] is the class of types that
   [printed_as] returns unchanged ([simple_printed], [printed_simple]). *)
From Coq Require Import PeanoNat NArith String List Bool Lia.
From BG Require Import C16.Model.
Import ListNotations.
Open Scope string_scope.
Open Scope list_scope.

Section CtyInd.
  Variable P : cty -> Prop.
  Hypothesis HB : forall ws c, P (CBase ws c).
  Hypothesis HP : forall c t, P t -> P (CPtr c t).
  Hypothesis HA : forall t n, P t -> P (CArr t n).
  Hypothesis HF : forall c r args, P r -> Forall (fun p => P (snd p)) args -> P (CFun c r args).

  Fixpoint cty_ind' (t : cty) : P t :=
    match t with
    | CBase ws c => HB ws c
    | CPtr c t' => HP c t' (cty_ind' t')
    | CArr t' n => HA t' n (cty_ind' t')
    | CFun c r args =>
        HF c r args (cty_ind' r)
           ((fix go (l : list (option string * cty)) : Forall (fun p => P (snd p)) l :=
               match l with
               | [] => Forall_nil _
               | p :: l' => Forall_cons p (cty_ind' (snd p)) (go l')
               end) args)
    end.
End CtyInd.

Lemma trailer_eq : forall out st, trailer out st = (out ++ pop_all st, []).
Proof.
  intros out [|i st]; [|reflexivity].
  cbn [trailer pop_all flat_map]. now rewrite app_nil_r.
Qed.

Lemma serialize_st_eq : forall t st, serialize_st t st = (serialize t st, []).
Proof.
  intros t st. unfold serialize.
  destruct t as [ws c|c t'|t' n|c r args]; cbn [serialize_st].
  - now rewrite trailer_eq.
  - destruct (serialize_st t' _) as [out st2]. now rewrite trailer_eq.
  - destruct (serialize_st t' st) as [out st1]. now rewrite trailer_eq.
  - destruct (serialize_st r []) as [o1 s1]. now rewrite trailer_eq.
Qed.

Lemma ser_base : forall ws c st,
  serialize (CBase ws c) st = const_toks c ++ map lex_word ws ++ pop_all st.
Proof.
  intros ws c st. unfold serialize. cbn [serialize_st].
  rewrite trailer_eq. cbn [fst]. now rewrite <- app_assoc.
Qed.

Lemma ser_ptr : forall c t st,
  serialize (CPtr c t) st = serialize t (ptr_item c :: st).
Proof.
  intros c t st. unfold serialize at 1. cbn [serialize_st]. fold (ptr_item c).
  rewrite serialize_st_eq, trailer_eq. cbn [fst pop_all flat_map]. apply app_nil_r.
Qed.

Lemma ser_arr : forall t n st,
  serialize (CArr t n) st = serialize t st ++ [TLBrk; TNum n; TRBrk].
Proof.
  intros t n st. unfold serialize at 1. cbn [serialize_st].
  rewrite serialize_st_eq, trailer_eq. cbn [fst pop_all flat_map]. apply app_nil_r.
Qed.

Lemma ser_fun : forall c r args st,
  serialize (CFun c r args) st =
  serialize r [] ++ [TLPar] ++ pop_all (if c then SConst :: st else st) ++ [TRPar] ++
  params_toks args.
Proof.
  intros c r args st. unfold serialize at 1. cbn [serialize_st].
  rewrite serialize_st_eq, trailer_eq. cbn [fst pop_all flat_map]. rewrite app_nil_r.
  unfold params_toks.
  destruct args as [|a args']; rewrite <- !app_assoc; reflexivity.
Qed.

Lemma pop_all_app : forall a b, pop_all (a ++ b) = pop_all a ++ pop_all b.
Proof. intros a b. unfold pop_all. apply flat_map_app. Qed.

Lemma pop_all_cons : forall i st, pop_all (i :: st) = emit_item i ++ pop_all st.
Proof. reflexivity. Qed.

Lemma pop_all_stack : forall cs on,
  pop_all (stack cs on) = pop_all (map ptr_item cs) ++ name_toks on.
Proof.
  intros cs on. unfold stack. rewrite pop_all_app. f_equal.
  destruct on as [n|]; reflexivity.
Qed.

Lemma pop_all_cst : forall c st, pop_all (cst c st) = const_toks c ++ pop_all st.
Proof. intros [] st; reflexivity. Qed.

Lemma stack_cons : forall c cs on, ptr_item c :: stack cs on = stack (c :: cs) on.
Proof. reflexivity. Qed.

Lemma stack_nil : forall on, stack [] on = param_stack on.
Proof. reflexivity. Qed.

Lemma sep_join_cons : forall (x y : list tok) l X,
  sep_join [TComma] (x :: y :: l) ++ X = x ++ TComma :: sep_join [TComma] (y :: l) ++ X.
Proof. intros. cbn [sep_join]. now rewrite <- !app_assoc. Qed.

Lemma params_toks_cons : forall a args X,
  params_toks (a :: args) ++ X =
  TLPar :: sep_join [TComma] (map ser_param (a :: args)) ++ TRPar :: X.
Proof. intros. unfold params_toks. fold ser_param. rewrite <- !app_assoc. reflexivity. Qed.

Lemma brks_cons : forall n L rest,
  brks (n :: L) ++ rest = TLBrk :: TNum n :: TRBrk :: brks L ++ rest.
Proof. reflexivity. Qed.

(* the walk moves an array length from the type to the suffixes still owed *)
Lemma arr_toks : forall t n st ds X,
  serialize (CArr t n) st ++ brks (rev ds) ++ X = serialize t st ++ brks (rev (ds ++ [n])) ++ X.
Proof.
  intros t n st ds X. rewrite ser_arr, rev_app_distr. cbn [rev app]. rewrite brks_cons.
  now rewrite <- app_assoc.
Qed.

Lemma fun_toks : forall c r args st X,
  serialize (CFun c r args) st ++ X =
  serialize r [] ++ TLPar :: pop_all (cst c st) ++ TRPar :: params_toks args ++ X.
Proof.
  intros c r args st X. rewrite ser_fun. unfold cst. rewrite <- !app_assoc. reflexivity.
Qed.

Lemma stars_len : forall cs, length cs <= length (pop_all (map ptr_item cs)).
Proof.
  induction cs as [|c cs IH]; [apply le_n|].
  cbn [map]. rewrite pop_all_cons, app_length. destruct c; cbn [ptr_item emit_item length]; lia.
Qed.

Lemma brks_len : forall L, length (brks L) = 3 * length L.
Proof.
  induction L as [|n L IH]; [reflexivity|].
  change (length (brks (n :: L))) with (3 + length (brks L)). cbn [length]. lia.
Qed.

Lemma cst_len : forall c cs on, length cs <= length (pop_all (cst c (stack cs on))).
Proof.
  intros c cs on. rewrite pop_all_cst, pop_all_stack, !app_length. pose proof (stars_len cs). lia.
Qed.

Lemma ret_len : forall r cs on, ptr_base r = true ->
  length cs + length (spine r) <= length (serialize r (stack cs on)).
Proof.
  induction r as [ws c|c r IH| |]; intros cs on H; try discriminate H; cbn [spine length].
  - rewrite ser_base, !app_length, pop_all_stack, app_length. pose proof (stars_len cs). lia.
  - rewrite ser_ptr, stack_cons. specialize (IH (c :: cs) on H). cbn [length] in IH. lia.
Qed.

Lemma fun_len : forall c r args cs on X,
  length (serialize (CFun c r args) (stack cs on) ++ X) =
  length (serialize r []) + length (pop_all (cst c (stack cs on))) + length (params_toks args) +
  length X + 2.
Proof.
  intros. rewrite fun_toks, app_length. cbn [length]. rewrite app_length. cbn [length].
  rewrite app_length. lia.
Qed.

Lemma mem_In : forall s l, mem s l = true -> In s l.
Proof.
  intros s l H. unfold mem in H. apply existsb_exists in H.
  destruct H as [x [Hin Heq]]. apply String.eqb_eq in Heq. now subst x.
Qed.

Lemma is_kw_plain : forall s, is_kw s = true -> plain_word s = true /\ is_tag_kw s = false.
Proof.
  (* were s one of the other words, is_kw s would evaluate to false *)
  intros s H. split.
  - unfold plain_word.
    destruct (String.eqb_spec s "const"); [subst s; discriminate H|].
    destruct (String.eqb_spec s "return"); [subst s; discriminate H|reflexivity].
  - destruct (is_tag_kw s) eqn:E; [|reflexivity]. apply mem_In in E.
    destruct E as [E|[E|[E|[]]]]; subst s; discriminate H.
Qed.

Lemma is_tag_kw_plain : forall s, is_tag_kw s = true -> plain_word s = true.
Proof.
  intros s H. apply mem_In in H.
  destruct H as [H|[H|[H|[]]]]; subst s; reflexivity.
Qed.

Lemma lex_word_plain : forall s, plain_word s = true -> lex_word s = TId s.
Proof.
  intros s H. unfold plain_word in H. apply andb_true_iff in H as [H1 H2].
  apply negb_true_iff in H1. apply negb_true_iff in H2. unfold lex_word. now rewrite H1, H2.
Qed.

Lemma unreserved : forall s, reserved s = false ->
  lex_word s = TId s /\ is_kw s = false /\ is_tag_kw s = false.
Proof.
  intros s H. unfold reserved in H.
  apply orb_false_iff in H as [H H4].
  apply orb_false_iff in H as [H H3].
  apply orb_false_iff in H as [H1 H2]. unfold lex_word. now rewrite H3, H4.
Qed.

Lemma ident_ok_facts : forall td s, ident_ok td s = true ->
  lex_word s = TId s /\ is_kw s = false /\ is_tag_kw s = false /\ mem s td = false.
Proof.
  intros td s H. unfold ident_ok in H. apply andb_true_iff in H as [H1 H2].
  apply negb_true_iff in H1. apply negb_true_iff in H2.
  destruct (unreserved s H1) as [Hl [Hk Ht]]. auto.
Qed.

Lemma map_lex_kw : forall ws, forallb is_kw ws = true -> map lex_word ws = map TId ws.
Proof.
  induction ws as [|w ws IH]; intros H; [reflexivity|].
  cbn [forallb] in H. apply andb_true_iff in H as [Hw Hws].
  cbn [map]. now rewrite (lex_word_plain w (proj1 (is_kw_plain w Hw))), (IH Hws).
Qed.

Lemma brks_heads : forall L rest, follow_ok rest = true ->
  abs_head (brks L ++ rest) = true /\ nokw_head (brks L ++ rest) = true.
Proof.
  intros [|n L] rest H; [|split; reflexivity].
  destruct rest as [|x rest]; [split; reflexivity|].
  destruct x; try discriminate H; split; reflexivity.
Qed.

Lemma abs_nc : forall X, abs_head X = true -> nc_head X = true.
Proof. intros [|x X] H; [reflexivity|]. destruct x; try discriminate H; reflexivity. Qed.

Lemma head_stars : forall (h : list tok -> bool) cs X,
  (forall Y, h (TStar :: Y) = true) -> h X = true -> h (pop_all (map ptr_item cs) ++ X) = true.
Proof. intros h cs X Hs H. destruct cs as [|[] cs]; [exact H|apply Hs|apply Hs]. Qed.

Lemma nokw_head_stack : forall td cs on X, wf_oname td on = true -> nokw_head X = true ->
  nokw_head (pop_all (stack cs on) ++ X) = true.
Proof.
  intros td cs on X Hon HX. rewrite pop_all_stack, <- app_assoc. apply (head_stars nokw_head); [reflexivity|].
  destruct on as [n|]; [|exact HX]. destruct (ident_ok_facts td n Hon) as [Hl [Hk _]].
  cbn [name_toks app]. rewrite Hl. cbn [nokw_head]. now rewrite Hk.
Qed.

Lemma bad_spec_head_stack : forall td cs on Y, wf_oname td on = true ->
  bad_spec_head td (pop_all (stack cs on) ++ TRPar :: Y) = true.
Proof.
  intros td cs on Y Hon. rewrite pop_all_stack, <- app_assoc.
  apply (head_stars (bad_spec_head td)); [reflexivity|]. destruct on as [n|]; [|reflexivity].
  destruct (ident_ok_facts td n Hon) as [Hl [Hk [Ht Hm]]].
  cbn [name_toks app]. rewrite Hl. cbn [bad_spec_head]. now rewrite Hk, Ht, Hm.
Qed.

(* after "(": a group unless const was popped first or there is nothing to put in it *)
Lemma starts_group_cst : forall td c cs on Y, wf_oname td on = true ->
  starts_group td (pop_all (cst c (stack cs on)) ++ TRPar :: Y) =
  negb (c || (is_nil cs && negb (is_some on))).
Proof.
  intros td c cs on Y Hon. destruct c; [reflexivity|]. cbn [cst orb]. rewrite pop_all_stack.
  destruct cs as [|[] cs]; try reflexivity. destruct on as [n|]; [|reflexivity].
  cbn [map pop_all flat_map name_toks app]. rewrite (proj1 (ident_ok_facts td n Hon)). exact Hon.
Qed.

Lemma span_kw_words : forall ws rest,
  forallb is_kw ws = true -> nokw_head rest = true ->
  span_kw (map TId ws ++ rest) = (ws, rest).
Proof.
  induction ws as [|w ws IH]; intros rest Hws Hrest.
  - cbn [map app]. destruct rest as [|x rest']; [reflexivity|].
    destruct x; try reflexivity.
    cbn [nokw_head] in Hrest. apply negb_true_iff in Hrest.
    cbn [span_kw]. now rewrite Hrest.
  - cbn [forallb] in Hws. apply andb_true_iff in Hws as [Hw Hws].
    cbn [map app span_kw]. rewrite Hw. now rewrite (IH rest Hws Hrest).
Qed.

Lemma p_spec_const : forall td c ts,
  nc_head ts = true ->
  p_spec td (const_toks c ++ ts) =
  match ts with
  | TId k :: r =>
      if is_tag_kw k then
        match r with
        | TId tag :: r' => if tag_ok tag then Some (CBase [k; tag] c, r') else None
        | _ => None
        end
      else if is_kw k then let (ws, r') := span_kw r in Some (CBase (k :: ws) c, r')
      else if mem k td then Some (CBase [k] c, r)
      else None
  | _ => None
  end.
Proof.
  intros td c ts Hnc. destruct c; cbn [const_toks app].
  - reflexivity.
  - unfold p_spec. destruct ts as [|x ts']; [reflexivity|].
    destruct x; try reflexivity. discriminate Hnc.
Qed.

Lemma p_spec_words : forall td ws c rest,
  wf_words td ws = true -> nokw_head rest = true ->
  p_spec td (const_toks c ++ map lex_word ws ++ rest) = Some (CBase ws c, rest).
Proof.
  intros td ws c rest Hwf Hrest. unfold wf_words in Hwf.
  apply orb_true_iff in Hwf as [Hkw|Hother].
  - apply andb_true_iff in Hkw as [Hne Hall].
    destruct ws as [|k ws']; [discriminate Hne|].
    rewrite (map_lex_kw _ Hall).
    cbn [forallb] in Hall. apply andb_true_iff in Hall as [Hk Hws].
    cbn [map app]. rewrite p_spec_const by reflexivity.
    destruct (is_kw_plain k Hk) as [_ Htag]. rewrite Htag, Hk.
    now rewrite (span_kw_words ws' rest Hws Hrest).
  - destruct ws as [|k [|tag [|x ws']]]; try discriminate Hother.
    + apply andb_true_iff in Hother as [Hmem Hres]. apply negb_true_iff in Hres.
      destruct (unreserved k Hres) as [Hl [Hk Ht]].
      cbn [map app]. rewrite Hl.
      rewrite p_spec_const by reflexivity. now rewrite Ht, Hk, Hmem.
    + apply andb_true_iff in Hother as [Hk Htag].
      pose proof Htag as Hres. apply negb_true_iff in Hres.
      cbn [map app]. rewrite (lex_word_plain k (is_tag_kw_plain k Hk)), (proj1 (unreserved tag Hres)).
      rewrite p_spec_const by reflexivity. now rewrite Hk, Htag.
Qed.

Lemma p_spec_reject : forall td c0 H, bad_spec_head td H = true ->
  p_spec td (const_toks c0 ++ H) = None.
Proof.
  intros td c0 H Hb. rewrite p_spec_const.
  - destruct H as [|x H']; [reflexivity|]. destruct x; try reflexivity.
    cbn [bad_spec_head] in Hb.
    apply andb_true_iff in Hb as [Hb H3].
    apply andb_true_iff in Hb as [H1 H2].
    apply negb_true_iff in H1. apply negb_true_iff in H2. apply negb_true_iff in H3.
    now rewrite H1, H2, H3.
  - destruct H as [|x H']; [reflexivity|]. destruct x; try reflexivity. discriminate Hb.
Qed.

(* The declarator reader, one step at a time.  A call with fuel f makes its own calls with
   f - 1; stated with that subtraction, the equations chain by rewriting and leave the
   fuel arithmetic to side conditions of the form  k <= f - a - b,  which [fuel] turns into
   a + (b + k) <= f  before calling lia (slow on truncated subtraction).  Only [p_dtor_star]
   is stated on S f: [p_dtor_stars], its one user, takes the fuel apart with each star. *)
Ltac fuel := repeat apply Nat.le_add_le_sub_l; lia.

Lemma p_dtor_star : forall td f c Y, nc_head Y = true ->
  p_dtor td (S f) (emit_item (ptr_item c) ++ Y) =
  match p_dtor td f Y with Some (d, r) => Some (DPtr c d, r) | None => None end.
Proof.
  intros td f c Y H. destruct c; [reflexivity|]. cbn [ptr_item emit_item app p_dtor].
  destruct Y as [|y Y']; [reflexivity|]. destruct y; try reflexivity. discriminate H.
Qed.

Lemma p_dtor_stars : forall td cs f X, nc_head X = true -> length cs <= f ->
  p_dtor td f (pop_all (map ptr_item cs) ++ X) =
  match p_dtor td (f - length cs) X with Some (d, r) => Some (ptrwrap cs d, r) | None => None end.
Proof.
  induction cs as [|c cs IH]; intros f X HX Hf.
  - cbn [length map pop_all flat_map app ptrwrap]. rewrite Nat.sub_0_r.
    now destruct (p_dtor td f X) as [[d r]|].
  - destruct f as [|f]; [inversion Hf|]. apply le_S_n in Hf.
    cbn [length map ptrwrap Nat.sub]. rewrite pop_all_cons, <- app_assoc.
    rewrite p_dtor_star by now apply (head_stars nc_head). rewrite (IH f X HX Hf).
    now destruct (p_dtor td (f - length cs) X) as [[d r]|].
Qed.

Lemma p_dtor_name : forall td f n Y, ident_ok td n = true -> 1 <= f ->
  p_dtor td f (TId n :: Y) = p_suffix td (f - 1) (DName (Some n)) Y.
Proof.
  intros td [|f] n Y H Hf; [inversion Hf|]. cbn [p_dtor Nat.sub]. now rewrite H, Nat.sub_0_r.
Qed.

Lemma p_dtor_abs : forall td f Y, abs_head Y = true -> 1 <= f ->
  p_dtor td f Y = p_suffix td (f - 1) (DName None) Y.
Proof.
  intros td [|f] Y H Hf; [inversion Hf|]. cbn [Nat.sub]. rewrite Nat.sub_0_r.
  destruct Y as [|y Y']; [reflexivity|]. destruct y; try discriminate H; reflexivity.
Qed.

Lemma p_dtor_lpar : forall td f Y, 1 <= f ->
  p_dtor td f (TLPar :: Y) =
  if starts_group td Y
  then match p_dtor td (f - 1) Y with
       | Some (d, TRPar :: r) => p_suffix td (f - 1) d r
       | _ => None
       end
  else p_suffix td (f - 1) (DName None) (TLPar :: Y).
Proof. intros td [|f] Y Hf; [inversion Hf|]. cbn [Nat.sub]. now rewrite Nat.sub_0_r. Qed.

Lemma p_suffix_brks : forall td L f d rest, length L <= f ->
  p_suffix td f d (brks L ++ rest) = p_suffix td (f - length L) (arrwrap L d) rest.
Proof.
  induction L as [|n L IH]; intros f d rest Hf.
  - cbn [brks flat_map app length arrwrap]. now rewrite Nat.sub_0_r.
  - destruct f as [|f]; [inversion Hf|]. apply le_S_n in Hf.
    rewrite brks_cons. cbn [length Nat.sub arrwrap p_suffix]. now apply IH.
Qed.

Lemma p_suffix_lpar : forall td f d Y, 1 <= f ->
  p_suffix td f d (TLPar :: Y) =
  match p_params td (f - 1) Y with
  | Some (ps, r) => p_suffix td (f - 1) (DFun d ps) r
  | None => None
  end.
Proof. intros td [|f] d Y Hf; [inversion Hf|]. cbn [Nat.sub]. now rewrite Nat.sub_0_r. Qed.

Lemma p_suffix_end : forall td f d rest, follow_ok rest = true -> 1 <= f ->
  p_suffix td f d rest = Some (d, rest).
Proof.
  intros td [|f] d rest H Hf; [inversion Hf|].
  destruct rest as [|x rest']; [reflexivity|]. destruct x; try discriminate H; reflexivity.
Qed.

Lemma p_params_void : forall td f Y, 1 <= f ->
  p_params td f (TId "void" :: TRPar :: Y) = Some ([], Y).
Proof. intros td [|f] Y Hf; [inversion Hf|reflexivity]. Qed.

Lemma p_params_not_void : forall td f Z, (forall Z', Z <> TId "void" :: TRPar :: Z') -> 1 <= f ->
  p_params td f Z = p_plist td (f - 1) Z.
Proof.
  intros td [|f] Z H Hf; [inversion Hf|]. cbn [Nat.sub p_params]. rewrite Nat.sub_0_r.
  destruct Z as [|x Z1]; [reflexivity|]. destruct x; try reflexivity.
  destruct Z1 as [|y Z2]; [reflexivity|]. destruct y; try reflexivity.
  destruct (String.eqb_spec s "void") as [->|]; [|reflexivity]. now elim (H Z2).
Qed.

Lemma p_plist_unfold : forall td f ts, 1 <= f ->
  p_plist td f ts =
  match p_decl td (f - 1) ts with
  | None => None
  | Some (p, r') =>
      match r' with
      | TRPar :: r'' => Some ([p], r'')
      | TComma :: r'' =>
          match p_plist td (f - 1) r'' with
          | Some (ps, r3) => Some (p :: ps, r3)
          | None => None
          end
      | _ => None
      end
  end.
Proof.
  intros td [|f] ts Hf; [inversion Hf|]. cbn [p_plist Nat.sub]. rewrite Nat.sub_0_r. unfold p_decl.
  destruct (p_spec td ts) as [[b r]|]; [|reflexivity].
  destruct (p_dtor td f r) as [[d r']|]; reflexivity.
Qed.

Lemma p_plist_none : forall td g X, p_spec td X = None -> p_plist td g X = None.
Proof.
  intros td g X H. destruct g as [|g]; [reflexivity|]. rewrite p_plist_unfold by fuel. unfold p_decl.
  now rewrite H.
Qed.

(*  * ... * name  or, abstract,  * ... *   in front of the suffixes W *)
Lemma dtor_stack : forall td cs on W f,
  wf_oname td on = true -> (on = None -> abs_head W = true) -> length cs + 1 <= f ->
  p_dtor td f (pop_all (stack cs on) ++ W) =
  match p_suffix td (f - length cs - 1) (DName on) W with
  | Some (d, r) => Some (ptrwrap cs d, r)
  | None => None
  end.
Proof.
  intros td cs on W f Hon HW Hf. rewrite pop_all_stack, <- app_assoc.
  destruct on as [n|]; cbn [name_toks app].
  - rewrite (proj1 (ident_ok_facts td n Hon)). rewrite p_dtor_stars by (reflexivity || fuel).
    now rewrite p_dtor_name by (exact Hon || fuel).
  - specialize (HW eq_refl). rewrite p_dtor_stars by (now apply abs_nc || fuel).
    now rewrite p_dtor_abs by (exact HW || fuel).
Qed.

Lemma apply_ptrwrap : forall cs d T, apply_dtor (ptrwrap cs d) T = apply_dtor d (ptrs cs T).
Proof.
  induction cs as [|c cs IH]; intros d T; [reflexivity|]. cbn [ptrwrap apply_dtor ptrs]. apply IH.
Qed.

Lemma apply_arrwrap : forall L d T, apply_dtor (arrwrap L d) T = apply_dtor d (arrays L T).
Proof.
  induction L as [|n L IH]; intros d T; [reflexivity|].
  cbn [arrwrap arrays]. rewrite IH. reflexivity.
Qed.

Lemma reads_p_decl : forall td f ts on T rest,
  reads td f ts on T rest <-> p_decl td f ts = Some ((on, T), rest).
Proof.
  intros td f ts on T rest. unfold reads, p_decl. split.
  - intros [b [r [d [H1 [H2 H3]]]]]. now rewrite H1, H2, H3.
  - destruct (p_spec td ts) as [[b r]|]; [|discriminate].
    destruct (p_dtor td f r) as [[d r']|] eqn:E; [|discriminate].
    intros H. injection H as H1 H2. subst r'. now exists b, r, d.
Qed.

Lemma arrays_snoc : forall ds n t, arrays (ds ++ [n]) t = arrays ds (CArr t n).
Proof. induction ds as [|d ds IH]; intros n t; [reflexivity|]. cbn [app arrays]. now rewrite IH. Qed.

Lemma N_list_eqb_eq : forall a b, N_list_eqb a b = true -> a = b.
Proof.
  induction a as [|x a IH]; intros [|y b] H; try discriminate H; [reflexivity|].
  cbn [N_list_eqb] in H. apply andb_true_iff in H as [H1 H2].
  apply N.eqb_eq in H1. subst y. now rewrite (IH b H2).
Qed.

Lemma N_list_eqb_refl : forall a, N_list_eqb a a = true.
Proof. induction a as [|x a IH]; [reflexivity|]. cbn [N_list_eqb]. now rewrite N.eqb_refl, IH. Qed.

Lemma ptrs_not_base : forall cs t ws c,
  (forall ws' c', t <> CBase ws' c') -> ptrs cs t <> CBase ws c.
Proof.
  induction cs as [|c0 cs IH]; intros t ws c Ht; [apply Ht|].
  cbn [ptrs]. apply IH. intros ws' c' Hx. discriminate Hx.
Qed.

Lemma map_opt_cons : forall A B (f : A -> option B) x l,
  map_opt f (x :: l) =
  match f x, map_opt f l with Some y, Some ys => Some (y :: ys) | _, _ => None end.
Proof. reflexivity. Qed.

Lemma map_opt_self : forall A (f : A -> option A) l,
  map_opt f l = Some l <-> Forall (fun x => f x = Some x) l.
Proof.
  intros A f l. induction l as [|x l IH]; [split; constructor|].
  rewrite map_opt_cons, Forall_cons_iff, <- IH. split.
  - destruct (f x) as [y|]; [|discriminate]. destruct (map_opt f l) as [ys|]; [|discriminate].
    intros H. injection H as -> ->. now split.
  - intros [-> ->]. reflexivity.
Qed.

Lemma rd_param_id : forall p,
  rd_param p = Some p <-> printed_as (is_some (fst p)) [] [] (snd p) = Some (snd p).
Proof.
  intros [on t]. unfold rd_param. cbn [fst snd].
  destruct (printed_as (is_some on) [] [] t) as [T|]; split; intros H; try discriminate H;
    injection H as ->; reflexivity.
Qed.

Lemma printed_as_fun : forall nm cs ds c r args,
  printed_as nm cs ds (CFun c r args) =
  if c || (is_nil cs && negb nm) || negb (ptr_base r) then None
  else match map_opt rd_param args with
       | Some args' => Some (ptrs cs (CFun false (arrays (rev ds) r) args'))
       | None => None
       end.
Proof. reflexivity. Qed.

Lemma printed_as_base_inv : forall t nm cs ds ws c,
  printed_as nm cs ds t = Some (CBase ws c) -> cs = [] /\ ds = [] /\ t = CBase ws c.
Proof.
  intros t. induction t as [ws0 c0|c0 t IH|t n IH|c0 r args IH IHa] using cty_ind';
    intros nm cs ds ws c H; cbn [printed_as] in H.
  - injection H as H1.
    destruct (rev ds) as [|d L] eqn:Ed; [|discriminate H1].
    cbn [arrays] in H1.
    destruct cs as [|c1 cs].
    + cbn [ptrs] in H1. split; [reflexivity|]. split; [|exact H1].
      apply (f_equal (@rev N)) in Ed. now rewrite rev_involutive in Ed.
    + exfalso. cbn [ptrs] in H1. revert H1. apply ptrs_not_base. intros ws' c' Hx; discriminate Hx.
  - destruct (IH nm (c0 :: cs) ds ws c H) as [E _]. discriminate E.
  - destruct (IH nm cs (ds ++ [n]) ws c H) as [_ [E _]]. now destruct ds.
  - exfalso.
    destruct (c0 || (is_nil cs && negb nm) || negb (ptr_base r)); [discriminate H|].
    destruct (map_opt _ args) as [args'|]; [|discriminate H].
    injection H as H1. revert H1. apply ptrs_not_base. intros ws' c' Hx; discriminate Hx.
Qed.

(* the conditions simple_go puts on a function type are those of printed_as *)
Lemma simple_go_fun : forall nm (cs : list bool) ds c r args,
  simple_go nm (negb (is_nil cs)) ds (CFun c r args) =
  negb (c || (is_nil cs && negb nm) || negb (ptr_base r)) && is_nil ds && forallb simple_param args.
Proof.
  intros nm cs ds c r args. cbn [simple_go]. fold simple_param.
  generalize (forallb simple_param args), (is_nil cs), (ptr_base r), (is_nil ds). intros F N P D.
  destruct c, N, nm, P, D; reflexivity.
Qed.

Lemma simple_printed : forall t nm cs ds,
  simple_go nm (negb (is_nil cs)) ds t = true ->
  printed_as nm cs ds t = Some (arrays ds (ptrs cs t)).
Proof.
  intros t. induction t as [ws c|c t IH|t n IH|c r args IH IHa] using cty_ind';
    intros nm cs ds Hs.
  - apply N_list_eqb_eq in Hs. cbn [printed_as]. now rewrite <- Hs.
  - cbn [printed_as]. now apply (IH nm (c :: cs) ds).
  - cbn [simple_go] in Hs. apply andb_true_iff in Hs as [Hst Hs].
    destruct cs as [|c0 cs]; [|discriminate Hst].
    cbn [printed_as ptrs]. rewrite (IH nm [] (ds ++ [n]) Hs). cbn [ptrs].
    now rewrite arrays_snoc.
  - rewrite simple_go_fun in Hs.
    apply andb_true_iff in Hs as [Hs Hargs]. apply andb_true_iff in Hs as [Hbad Hds].
    apply negb_true_iff in Hbad. destruct c; [discriminate Hbad|].
    destruct ds as [|d0 ds]; [|discriminate Hds].
    rewrite printed_as_fun, Hbad, (proj2 (map_opt_self _ rd_param args)); [reflexivity|].
    rewrite Forall_forall in *. rewrite forallb_forall in Hargs.
    intros p Hin. apply rd_param_id. exact (IHa p Hin _ [] [] (Hargs p Hin)).
Qed.

Lemma simple_params_printed : forall args,
  forallb simple_param args = true -> map_opt rd_param args = Some args.
Proof.
  intros args H. rewrite forallb_forall in H. apply map_opt_self, Forall_forall.
  intros p Hin. apply rd_param_id. exact (simple_printed _ _ [] [] (H p Hin)).
Qed.

Lemma plug_app : forall a b t, plug (a ++ b) t = plug a (plug b t).
Proof. induction a as [|[c|n] a IH]; intros b t; cbn [app plug]; [reflexivity| |]; now rewrite IH. Qed.

Lemma arrays_plug : forall L T, arrays L T = plug (map FArr L) T.
Proof. induction L as [|d L IH]; intros T; [reflexivity|]. cbn [arrays map plug]. now rewrite IH. Qed.

Lemma ptrs_plug : forall cs T, ptrs cs T = plug (map FPtr (rev cs)) T.
Proof.
  induction cs as [|c cs IH]; intros T; [reflexivity|].
  cbn [ptrs rev]. now rewrite IH, map_app, plug_app.
Qed.

Lemma spine_plug : forall pre k, spine (plug pre k) = pre ++ spine k.
Proof. induction pre as [|[c|n] pre IH]; intros k; cbn [plug spine app]; [reflexivity| |]; now rewrite IH. Qed.

Lemma core_plug : forall pre k, core (plug pre k) = core k.
Proof. induction pre as [|[c|n] pre IH]; intros k; cbn [plug core]; [reflexivity| |]; apply IH. Qed.

Lemma core_arrays : forall L T, core (arrays L T) = core T.
Proof. intros L T. rewrite arrays_plug. apply core_plug. Qed.

Lemma sp_ptrs_app : forall a b, sp_ptrs (a ++ b) = sp_ptrs a ++ sp_ptrs b.
Proof. induction a as [|[c|n] a IH]; intros b; cbn [app sp_ptrs]; [reflexivity| |]; now rewrite IH. Qed.

Lemma sp_arrs_app : forall a b, sp_arrs (a ++ b) = sp_arrs a ++ sp_arrs b.
Proof. induction a as [|[c|n] a IH]; intros b; cbn [app sp_arrs]; [reflexivity| |]; now rewrite IH. Qed.

Lemma sp_arrs_FArr : forall L, sp_arrs (map FArr L) = L.
Proof. induction L as [|d L IH]; [reflexivity|]. cbn [map sp_arrs]. now rewrite IH. Qed.

Lemma sp_arrs_FPtr : forall P, sp_arrs (map FPtr P) = [].
Proof. induction P as [|c P IH]; [reflexivity|]. exact IH. Qed.

Lemma simple_go_arrays : forall L nm ds0 X,
  simple_go nm false ds0 (arrays L X) = simple_go nm false (ds0 ++ L) X.
Proof.
  induction L as [|d L IH]; intros nm ds0 X.
  - now rewrite app_nil_r.
  - cbn [arrays simple_go negb andb]. rewrite IH, <- app_assoc. reflexivity.
Qed.

Lemma simple_go_ptrs : forall cs nm s ds X,
  simple_go nm s ds (ptrs cs X) = simple_go nm (s || negb (is_nil cs)) ds X.
Proof.
  induction cs as [|c cs IH]; intros nm s ds X.
  - cbn [ptrs is_nil negb]. now rewrite orb_false_r.
  - cbn [ptrs]. rewrite IH. cbn [simple_go is_nil negb]. now rewrite orb_true_r.
Qed.

(* The converse: printed as itself means in the class.  The walk has to remember how the
   pointers and arrays above t interleave, which (cs, ds) forget: pre is that path from the
   whole type, plug pre t, down to t. *)
Lemma printed_simple : forall t nm pre,
  printed_as nm (rev (sp_ptrs pre)) (sp_arrs pre) t = Some (plug pre t) ->
  simple_go nm false [] (plug pre t) = true.
Proof.
  intros t. induction t as [ws c|c t IH|t n IH|c r args IH IHa] using cty_ind';
    intros nm pre H.
  - cbn [printed_as] in H. injection H as H.
    (* the array lengths read off the spine of both sides *)
    assert (HA : rev (sp_arrs pre) = sp_arrs pre).
    { apply (f_equal (fun x => sp_arrs (spine x))) in H.
      rewrite arrays_plug, ptrs_plug, !spine_plug in H. cbn [spine] in H.
      rewrite !app_nil_r, sp_arrs_app, sp_arrs_FArr, sp_arrs_FPtr, app_nil_r in H. exact H. }
    rewrite <- H. rewrite simple_go_arrays, simple_go_ptrs. cbn [app simple_go].
    rewrite HA, HA. apply N_list_eqb_refl.
  - change (CPtr c t) with (plug [FPtr c] t). rewrite <- plug_app. apply IH.
    rewrite sp_ptrs_app, sp_arrs_app, rev_app_distr. cbn [sp_ptrs sp_arrs rev app].
    rewrite app_nil_r, plug_app. exact H.
  - change (CArr t n) with (plug [FArr n] t). rewrite <- plug_app. apply IH.
    rewrite sp_ptrs_app, sp_arrs_app. cbn [sp_ptrs sp_arrs].
    rewrite app_nil_r, plug_app. exact H.
  - rewrite printed_as_fun in H.
    destruct (c || (is_nil (rev (sp_ptrs pre)) && negb nm) || negb (ptr_base r)) eqn:Hbad;
      [discriminate H|].
    destruct (map_opt rd_param args) as [args'|] eqn:Hm; [|discriminate H].
    injection H as H.
    (* the function type itself is the core of both sides *)
    pose proof (f_equal core H) as Hcore.
    rewrite ptrs_plug, !core_plug in Hcore. cbn [core] in Hcore.
    injection Hcore as Hc Hr Ha. subst c args'.
    rewrite <- H, simple_go_ptrs, Hr. cbn [orb]. rewrite simple_go_fun, Hbad. cbn [negb is_nil andb].
    apply map_opt_self in Hm. rewrite Forall_forall in IHa, Hm.
    apply forallb_forall. intros p Hin. apply (IHa p Hin _ []), rd_param_id, (Hm p Hin).
Qed.

(* What the reader makes of the printer's output, for every type, as an invariant of the
   walk down the type: cs = the pointers pushed so far, ds = the array suffixes owed.  W is
   any text at which the loop over the suffixes stops, either handing back the declarator
   read so far (ok = true) or failing (ok = false).  Two instances occur.  With ok = true,
   W is what may follow a declaration ([reads_follow]).  With ok = false, W is the "(" group
   behind a return type ([reads_as_fun], [ret_rejected_all]): there only pointers over a
   base type with no suffix owed may stand in front, every other type leaves "(" where no
   suffix can start.  An abstract declarator has to see where it ends, hence the hypothesis
   on abs_head; it is asked only of pointers over a base type, where it is used, because
   "(" does not satisfy it and is put behind other types, or behind a suffix owed. *)
Definition reads_as (t : cty) : Prop :=
  forall td cs on ds W (ok : bool) f,
    wf_ty td t = true -> wf_oname td on = true ->
    nokw_head (brks (rev ds) ++ W) = true ->
    (on = None -> ptr_base t = true -> abs_head (brks (rev ds) ++ W) = true) ->
    (forall g d, 1 <= g -> p_suffix td g d W = if ok then Some (d, W) else None) ->
    2 * length (serialize t (stack cs on) ++ brks (rev ds)) + 2 <= f ->
    p_decl td f (serialize t (stack cs on) ++ brks (rev ds) ++ W) =
    match printed_as (is_some on) cs ds t with
    | Some T => if ok then Some ((on, T), W) else None
    | None => None
    end.

(* the group "( [const] * ... * name )" is never a parameter list *)
Lemma params_reject_group : forall td f c cs on Y,
  wf_oname td on = true ->
  p_params td f (pop_all (cst c (stack cs on)) ++ TRPar :: Y) = None.
Proof.
  intros td f c cs on Y Hon. rewrite pop_all_cst, <- app_assoc.
  pose proof (bad_spec_head_stack td cs on Y Hon) as Hbad.
  destruct f as [|f]; [reflexivity|]. rewrite p_params_not_void; [| |fuel].
  - apply p_plist_none. now apply p_spec_reject.
  - intros Z' E. destruct c; [discriminate E|]. cbn [const_toks app] in E.
    rewrite E in Hbad. discriminate Hbad.
Qed.

Lemma p_suffix_group : forall td g d c cs on Y, wf_oname td on = true -> 1 <= g ->
  p_suffix td g d (TLPar :: pop_all (cst c (stack cs on)) ++ TRPar :: Y) = None.
Proof.
  intros td g d c cs on Y Hon Hg. rewrite p_suffix_lpar by exact Hg. now rewrite params_reject_group.
Qed.

Lemma reads_follow : forall t, reads_as t -> forall td cs on ds rest f,
  wf_ty td t = true -> wf_oname td on = true -> follow_ok rest = true ->
  2 * length (serialize t (stack cs on) ++ brks (rev ds)) + 2 <= f ->
  p_decl td f (serialize t (stack cs on) ++ brks (rev ds) ++ rest) =
  match printed_as (is_some on) cs ds t with
  | Some T => Some ((on, T), rest)
  | None => None
  end.
Proof.
  intros t H td cs on ds rest f Hwf Hon Hrest Hf.
  destruct (brks_heads (rev ds) rest Hrest) as [Ha Hk].
  exact (H td cs on ds rest true f Hwf Hon Hk (fun _ _ => Ha)
           (fun g d => p_suffix_end td g d rest Hrest) Hf).
Qed.

Lemma param_reads : forall td p rest f,
  reads_as (snd p) -> wf_oname td (fst p) && wf_ty td (snd p) = true ->
  follow_ok rest = true -> 2 * length (ser_param p) + 2 <= f ->
  p_decl td f (ser_param p ++ rest) =
  match rd_param p with Some p' => Some (p', rest) | None => None end.
Proof.
  intros td [on t] rest f H Hwf Hrest Hf. cbn [fst snd] in H, Hwf.
  apply andb_true_iff in Hwf as [Hon Hty].
  pose proof (reads_follow t H td [] on [] rest f Hty Hon Hrest) as H'.
  cbn [stack map rev brks flat_map app] in H'. rewrite app_nil_r in H'.
  unfold rd_param, ser_param. cbn [fst snd]. rewrite (H' Hf).
  now destruct (printed_as (is_some on) [] [] t).
Qed.

Lemma plist_reads : forall td args,
  Forall (fun p => reads_as (snd p)) args -> args <> [] ->
  forallb (fun p => wf_oname td (fst p) && wf_ty td (snd p)) args = true ->
  forall rest f,
  2 * length (sep_join [TComma] (map ser_param args)) + 3 <= f ->
  p_plist td f (sep_join [TComma] (map ser_param args) ++ TRPar :: rest) =
  match map_opt rd_param args with Some args' => Some (args', rest) | None => None end.
Proof.
  intros td args Hall. induction Hall as [|p args Hp Hall IH]; intros Hne Hwf rest f Hf.
  - now elim Hne.
  - cbn [forallb] in Hwf. apply andb_true_iff in Hwf as [Hwp Hwa].
    rewrite p_plist_unfold, map_opt_cons by fuel.
    destruct args as [|q args].
    + cbn [map sep_join] in *. rewrite param_reads by (assumption || reflexivity || fuel).
      now destruct (rd_param p).
    + cbn [map] in *. rewrite sep_join_cons.
      cbn [sep_join] in Hf. rewrite !app_length in Hf. cbn [length] in Hf.
      rewrite param_reads by (assumption || reflexivity || fuel).
      destruct (rd_param p); [|reflexivity].
      rewrite (IH ltac:(discriminate) Hwa rest (f - 1)) by (cbn [sep_join]; fuel).
      now destruct (map_opt rd_param (q :: args)).
Qed.

Lemma plist_void_rpar : forall td f Z, 3 <= f ->
  p_plist td f (TId "void" :: TRPar :: Z) = Some ([(None, CBase ["void"] false)], Z).
Proof.
  intros td f Z Hf. rewrite p_plist_unfold by fuel. unfold p_decl.
  change (p_spec td (TId "void" :: TRPar :: Z)) with (Some (CBase ["void"] false, TRPar :: Z)).
  cbv beta iota. rewrite p_dtor_abs by (reflexivity || fuel).
  now rewrite p_suffix_end by (reflexivity || fuel).
Qed.

Lemma map_opt_sole_void : forall args,
  map_opt rd_param args = Some [(None, CBase ["void"] false)] -> sole_void args = true.
Proof.
  intros args H. destruct args as [|[on t] [|q args]].
  - discriminate H.
  - rewrite map_opt_cons in H. unfold rd_param in H. cbn [fst snd] in H.
    destruct (printed_as (is_some on) [] [] t) as [T|] eqn:E; [|discriminate H].
    cbn [map_opt] in H. inversion H as [[H1 H2]]. subst on T.
    destruct (printed_as_base_inv _ _ _ _ _ _ E) as [_ [_ Ht]]. subst t. reflexivity.
  - rewrite map_opt_cons in H. destruct (rd_param (on, t)); [|discriminate H].
    rewrite map_opt_cons in H. destruct (rd_param q); [|discriminate H].
    destruct (map_opt rd_param args); discriminate H.
Qed.

(*  D (params) W  *)
Lemma suffix_params : forall td args W g d,
  Forall (fun p => reads_as (snd p)) args ->
  forallb (fun p => wf_oname td (fst p) && wf_ty td (snd p)) args = true ->
  sole_void args = false ->
  2 * length (params_toks args) + 1 <= g ->
  p_suffix td g d (params_toks args ++ W) =
  match map_opt rd_param args with
  | Some args' => p_suffix td (g - 1) (DFun d args') W
  | None => None
  end.
Proof.
  intros td args W g d Hall Hwf Hsv Hg. destruct args as [|a args].
  - cbn [params_toks length app] in *. change (lex_word "void") with (TId "void").
    rewrite p_suffix_lpar by fuel. now rewrite p_params_void by fuel.
  - rewrite <- (app_nil_r (params_toks _)), params_toks_cons in Hg. rewrite params_toks_cons.
    cbn [length] in Hg. rewrite app_length in Hg. cbn [length] in Hg.
    rewrite p_suffix_lpar by fuel.
    pose proof (plist_reads td (a :: args) Hall ltac:(discriminate) Hwf W (g - 1 - 1) ltac:(fuel))
      as Hpl.
    rewrite p_params_not_void; [| |fuel].
    + rewrite Hpl. now destruct (map_opt rd_param (a :: args)).
    + (* were the text "void )", the list would be a sole void parameter *)
      intros Z' E. rewrite E, plist_void_rpar in Hpl by fuel.
      destruct (map_opt rd_param (a :: args)) as [args'|] eqn:Em; [|discriminate Hpl].
      injection Hpl as H1 _. subst args'.
      rewrite (map_opt_sole_void _ Em) in Hsv. discriminate Hsv.
Qed.

(*  specifiers * ... * name W  *)
Lemma base_head : forall td ws c cs on W f,
  wf_words td ws = true -> wf_oname td on = true ->
  nokw_head W = true -> (on = None -> abs_head W = true) -> length cs + 1 <= f ->
  p_decl td f (serialize (CBase ws c) (stack cs on) ++ W) =
  match p_suffix td (f - length cs - 1) (DName on) W with
  | Some (d, r) => Some (apply_dtor d (ptrs cs (CBase ws c)), r)
  | None => None
  end.
Proof.
  intros td ws c cs on W f Hwf Hon Hkw Habs Hf. rewrite ser_base, <- !app_assoc. unfold p_decl.
  rewrite p_spec_words by (exact Hwf || now apply (nokw_head_stack td)).
  rewrite dtor_stack by assumption.
  destruct (p_suffix td (f - length cs - 1) (DName on) W) as [[d r]|]; [|reflexivity].
  now rewrite apply_ptrwrap.
Qed.

(* a return type, pointers over a base type, is written as a specifier list and a run of
   stars: it hands its type to whatever declarator follows *)
Lemma ret_prefix : forall td r cs0 f X, ptr_base r = true -> wf_ty td r = true ->
  nc_head X = true -> nokw_head X = true -> length cs0 + length (spine r) <= f ->
  p_decl td f (serialize r (map ptr_item cs0) ++ X) =
  match p_dtor td (f - length cs0 - length (spine r)) X with
  | Some (d, r') => Some (apply_dtor d (ptrs cs0 r), r')
  | None => None
  end.
Proof.
  intros td r. induction r as [ws c|c r IH|r _ n|c r _ args]; intros cs0 f X Hpb Hwr Hnc Hkw Hf;
    try discriminate Hpb; cbn [spine length] in *.
  - rewrite Nat.add_0_r in Hf. rewrite Nat.sub_0_r, ser_base, <- !app_assoc. unfold p_decl.
    rewrite p_spec_words by (exact Hwr || now apply (head_stars nokw_head)).
    rewrite p_dtor_stars by assumption.
    destruct (p_dtor td (f - length cs0) X) as [[d r']|]; [|reflexivity].
    now rewrite apply_ptrwrap.
  - rewrite ser_ptr, (IH (c :: cs0)) by (assumption || (cbn [length]; lia)). cbn [length ptrs].
    now rewrite <- Nat.sub_add_distr, Nat.add_succ_comm, Nat.sub_add_distr.
Qed.

Lemma wf_fun_inv : forall td c r args, wf_ty td (CFun c r args) = true ->
  wf_ty td r = true /\ sole_void args = false /\
  forallb (fun p => wf_oname td (fst p) && wf_ty td (snd p)) args = true.
Proof.
  intros td c r args H. cbn [wf_ty] in H.
  apply andb_true_iff in H as [H Ha].
  apply andb_true_iff in H as [Hr Hsv]. apply negb_true_iff in Hsv. auto.
Qed.

(*  R ( [const] * ... * name ) W   where R is pointers over a base type *)
Lemma fun_head : forall td r c cs on W f,
  ptr_base r = true -> wf_ty td r = true -> wf_oname td on = true ->
  length (spine r) + length cs + 3 <= f ->
  p_decl td f (serialize r [] ++ TLPar :: pop_all (cst c (stack cs on)) ++ TRPar :: W) =
  if c || (is_nil cs && negb (is_some on)) then None
  else match p_suffix td (f - length (spine r) - 1) (ptrwrap cs (DName on)) W with
       | Some (d, r') => Some (apply_dtor d r, r')
       | None => None
       end.
Proof.
  intros td r c cs on W f Hpb Hwr Hon Hf.
  rewrite (ret_prefix td r []) by (assumption || reflexivity || (cbn [length]; lia)).
  cbn [length ptrs]. rewrite Nat.sub_0_r, p_dtor_lpar by fuel.
  rewrite starts_group_cst by exact Hon.
  destruct (c || (is_nil cs && negb (is_some on))) eqn:Hbad; cbn [negb].
  - rewrite p_suffix_lpar by fuel. now rewrite params_reject_group.
  - apply orb_false_iff in Hbad as [Hc _]. subst c. cbn [cst].
    rewrite dtor_stack by (reflexivity || assumption || fuel).
    now rewrite p_suffix_end by (reflexivity || fuel).
Qed.

Lemma reads_as_base : forall ws c, reads_as (CBase ws c).
Proof.
  intros ws c td cs on ds W ok f Hwf Hon Hk Ha Hstop Hf. cbn [wf_ty printed_as] in *.
  rewrite app_length, brks_len in Hf. pose proof (ret_len (CBase ws c) cs on eq_refl).
  rewrite base_head by (assumption || fuel || (intros E; exact (Ha E eq_refl))).
  rewrite p_suffix_brks by fuel. rewrite Hstop by fuel.
  destruct ok; [|reflexivity]. now rewrite apply_arrwrap.
Qed.

Lemma reads_as_ptr : forall c t, reads_as t -> reads_as (CPtr c t).
Proof.
  intros c t IH td cs on ds W ok f Hwf Hon Hk Ha Hstop Hf.
  rewrite ser_ptr, stack_cons in *. cbn [printed_as].
  apply (IH td (c :: cs) on ds W ok f); assumption.
Qed.

Lemma reads_as_arr : forall t n, reads_as t -> reads_as (CArr t n).
Proof.
  intros t n IH td cs on ds W ok f Hwf Hon Hk Ha Hstop Hf.
  rewrite arr_toks. rewrite <- (app_nil_r (brks _)), arr_toks, app_nil_r in Hf. cbn [printed_as].
  (* the suffix owed for this array is what the tail now starts with *)
  apply (IH td cs on (ds ++ [n]) W ok f); try assumption.
  - rewrite rev_app_distr. reflexivity.
  - intros _ _. rewrite rev_app_distr. reflexivity.
Qed.

Lemma reads_as_fun : forall c r args,
  reads_as r -> Forall (fun p => reads_as (snd p)) args -> reads_as (CFun c r args).
Proof.
  intros c r args IHr IHa td cs on ds W ok f Hwf Hon _ _ Hstop Hf.
  destruct (wf_fun_inv td c r args Hwf) as [Hwr [Hsv Hwa]].
  rewrite fun_len, brks_len, rev_length in Hf. pose proof (cst_len c cs on) as Hcl.
  rewrite fun_toks, printed_as_fun.
  destruct (ptr_base r) eqn:Hpb; cbn [negb].
  - rewrite orb_false_r.
    pose proof (ret_len r [] None Hpb) as Hrl. cbn [stack map app param_stack length] in Hrl.
    rewrite fun_head by (assumption || lia).
    destruct (c || (is_nil cs && negb (is_some on))); [reflexivity|].
    rewrite suffix_params by (assumption || fuel).
    destruct (map_opt rd_param args) as [args'|]; [|reflexivity].
    pose proof (rev_length ds) as Hrv.
    rewrite p_suffix_brks by fuel. rewrite Hstop by fuel.
    destruct ok; [|reflexivity].
    rewrite apply_arrwrap. cbn [apply_dtor]. now rewrite apply_ptrwrap.
  - (* the return type is read with nothing on the stack and nothing owed, in front of the
       group: the reading fails whatever the return type is printed as *)
    rewrite orb_true_r.
    refine (eq_trans (IHr td [] None [] _ false f Hwr eq_refl _ _ _ _) _).
    + reflexivity.
    + intros _ Hx. rewrite Hx in Hpb. discriminate Hpb.
    + intros g d. now apply p_suffix_group.
    + cbn [stack map app param_stack rev brks flat_map]. rewrite app_nil_r. lia.
    + now destruct (printed_as (is_some None) [] [] r).
Qed.

Theorem reads_as_all : forall t, reads_as t.
Proof.
  intros t. induction t as [ws c|c t IH|t n IH|c r args IH IHa] using cty_ind'.
  - apply reads_as_base.
  - now apply reads_as_ptr.
  - now apply reads_as_arr.
  - now apply reads_as_fun.
Qed.

Lemma ret_rejected_all : forall r, ret_rejected r.
Proof.
  intros r td cs1 ds1 c cs on Y f Hwf Hon Hbad Hf.
  refine (eq_trans (reads_as_all r td cs1 None ds1 _ false f Hwf eq_refl _ _
                      (fun g d => p_suffix_group td g d c cs on Y Hon) _) _).
  - now destruct (rev ds1).
  - intros _ Hpb. destruct Hbad as [Hb|Hb]; [rewrite Hb in Hpb; discriminate Hpb|].
    destruct (rev ds1) as [|d L] eqn:Ed; [|reflexivity].
    elim Hb. apply (f_equal (@rev N)) in Ed. now rewrite rev_involutive in Ed.
  - rewrite !app_length in *. lia.
  - now destruct (printed_as (is_some None) cs1 ds1 r).
Qed.

Lemma denote_td_p_decl : forall td ts,
  denote_td td ts =
  match p_decl td (2 * length ts + 2) ts with
  | Some ((Some n, t), []) => Some (n, t)
  | _ => None
  end.
Proof.
  intros td ts. unfold denote_td, p_decl.
  destruct (p_spec td ts) as [[b r]|]; [|reflexivity].
  destruct (p_dtor td (2 * length ts + 2) r) as [[d [|x r']]|]; try reflexivity.
  all: destruct (apply_dtor d b) as [[n|] t]; reflexivity.
Qed.

Theorem decl_reading_td : forall td t n,
  wf_names_td td t n ->
  denote_td td (serialize t [SName n]) =
  match printed_as true [] [] t with Some T => Some (n, T) | None => None end.
Proof.
  intros td t n [Hn Hwf]. rewrite denote_td_p_decl.
  pose proof (reads_follow t (reads_as_all t) td [] (Some n) [] []
                           (2 * length (serialize t [SName n]) + 2) Hwf Hn eq_refl) as H.
  cbn [stack map app param_stack rev brks flat_map is_some] in H.
  rewrite !app_nil_r in H. rewrite H by fuel.
  now destruct (printed_as true [] [] t).
Qed.

Theorem decl_roundtrip_exact_td : forall td t n,
  wf_names_td td t n ->
  (denote_td td (serialize t [SName n]) = Some (n, t) <-> simple t = true).
Proof.
  intros td t n Hwf. rewrite (decl_reading_td td t n Hwf). split.
  - intros H. apply (printed_simple t true []). cbn [sp_ptrs sp_arrs rev plug].
    destruct (printed_as true [] [] t) as [T|]; [|discriminate H]. now injection H as ->.
  - intros H. now rewrite (simple_printed t true [] [] H).
Qed.

Theorem decl_roundtrip_partial : forall t n,
  simple t = true -> wf_names t n -> denote (serialize t [SName n]) = Some (n, t).
Proof. intros t n Hs Hwf. now apply (decl_roundtrip_exact_td []). Qed.

Theorem decl_roundtrip_refuted :
  (exists t n, wf_names t n /\ denote (serialize t [SName n]) <> Some (n, t)) /\
  (wf_names (CPtr false (CArr (CBase ["int"] false) 3)) "p" /\
   denote (serialize (CPtr false (CArr (CBase ["int"] false) 3)) [SName "p"]) =
   Some ("p", CArr (CPtr false (CBase ["int"] false)) 3)) /\
  (wf_names (CPtr false (CFun false (CPtr false (CFun false (CBase ["int"] false)
                                                      [(None, CBase ["char"] false)]))
                              [(None, CBase ["int"] false)])) "f" /\
   denote (serialize (CPtr false (CFun false (CPtr false (CFun false (CBase ["int"] false)
                                                      [(None, CBase ["char"] false)]))
                              [(None, CBase ["int"] false)])) [SName "f"]) = None) /\
  (wf_names (CArr (CArr (CBase ["int"] false) 3) 2) "m" /\
   denote (serialize (CArr (CArr (CBase ["int"] false) 3) 2) [SName "m"]) =
   Some ("m", CArr (CArr (CBase ["int"] false) 2) 3)) /\
  (wf_names (CArr (CPtr false (CFun false (CBase ["int"] false) [(None, CBase ["int"] false)])) 3) "a" /\
   denote (serialize (CArr (CPtr false (CFun false (CBase ["int"] false)
                                             [(None, CBase ["int"] false)])) 3) [SName "a"]) =
   Some ("a", CPtr false (CFun false (CArr (CBase ["int"] false) 3) [(None, CBase ["int"] false)]))).
Proof.
  (* the first of the four examples is the witness *)
  refine ((fun H => conj _ H) _); [|repeat split; vm_compute; reflexivity].
  destruct H as [[Hwf Hd] _]. eexists _, _. split; [exact Hwf|]. rewrite Hd. discriminate.
Qed.

Lemma forallb_sep_join : forall (q : tok -> bool) sep l,
  forallb q sep = true -> Forall (fun x => forallb q x = true) l ->
  forallb q (sep_join sep l) = true.
Proof.
  intros q sep l Hsep Hall. induction Hall as [|x l Hx Hall IH]; [reflexivity|].
  destruct l as [|y l']; [exact Hx|].
  change (sep_join sep (x :: y :: l')) with (x ++ sep ++ sep_join sep (y :: l')).
  rewrite !forallb_app, Hx, Hsep, IH. reflexivity.
Qed.

(* the text before "{" is the function type's text without the parentheses around the name *)
Lemma wrapper_head_eq : forall name suf ret args,
  wrapper_head name suf ret args =
  serialize ret [] ++ lex_word (String.append name suf) :: params_toks (named_args args).
Proof.
  intros name suf ret args. unfold wrapper_head, named_args, params_toks, serialize_args.
  destruct (name_args 0 args) as [|p a]; [reflexivity|].
  cbn [map fst snd param_stack]. now rewrite map_map.
Qed.

Lemma wrapper_split : forall name suf ret args,
  wrapper name suf ret args =
  wrapper_head name suf ret args ++ TLBrace :: wrapper_body name ret args.
Proof.
  intros name suf ret args. unfold wrapper, wrapper_head, wrapper_body.
  rewrite <- !app_assoc. reflexivity.
Qed.

(* what holds of punctuation, of `void` and of the words the printer lexes holds of
   every token it writes *)
Section SerForall.
  Variable q : tok -> bool.
  Hypothesis Hpunct : forall t, is_punct t = true -> q t = true.
  Hypothesis Hvoid : q (TId "void") = true.

  Lemma params_forallb : forall args,
    Forall (fun p => forall st, forallb q (map lex_word (cty_words (snd p))) = true ->
                                forallb q (pop_all st) = true ->
                                forallb q (serialize (snd p) st) = true) args ->
    forallb q (map lex_word (flat_map (fun p => match fst p with Some n => [n] | None => [] end ++
                                                cty_words (snd p)) args)) = true ->
    forallb q (params_toks args) = true.
  Proof.
    intros args IHa Hw. destruct args as [|a args].
    - cbn [params_toks forallb]. change (lex_word "void") with (TId "void").
      now rewrite Hvoid, !Hpunct.
    - rewrite <- (app_nil_r (params_toks _)), params_toks_cons.
      cbn [forallb]. rewrite forallb_app. cbn [forallb]. rewrite !Hpunct by reflexivity.
      rewrite forallb_sep_join; [reflexivity|cbn [forallb]; now rewrite Hpunct|].
      induction IHa as [|p l Hp IHa IHl]; [constructor|].
      cbn [flat_map] in Hw. rewrite !map_app, !forallb_app in Hw.
      apply andb_true_iff in Hw as [Hwp Hwl].
      apply andb_true_iff in Hwp as [Hwn Hwt].
      cbn [map]. constructor; [|exact (IHl Hwl)].
      apply Hp; [exact Hwt|]. destruct (fst p) as [n|]; [|reflexivity].
      cbn [param_stack pop_all flat_map emit_item app]. exact Hwn.
  Qed.

  Lemma serialize_forallb : forall t st,
    forallb q (map lex_word (cty_words t)) = true -> forallb q (pop_all st) = true ->
    forallb q (serialize t st) = true.
  Proof.
    intros t. induction t as [ws c|c t IH|t n IH|c r args IH IHa] using cty_ind';
      intros st Hw Hst.
    - rewrite ser_base, !forallb_app. cbn [cty_words] in Hw. rewrite Hw, Hst.
      destruct c; cbn [const_toks forallb]; [rewrite Hpunct by reflexivity|]; reflexivity.
    - rewrite ser_ptr. apply IH; [exact Hw|].
      rewrite pop_all_cons, forallb_app, Hst.
      destruct c; cbn [ptr_item emit_item forallb]; rewrite !Hpunct by reflexivity; reflexivity.
    - rewrite ser_arr, forallb_app. rewrite (IH st Hw Hst).
      cbn [forallb]. rewrite !Hpunct by reflexivity. reflexivity.
    - cbn [cty_words] in Hw. rewrite map_app, forallb_app in Hw.
      apply andb_true_iff in Hw as [Hwr Hwa].
      rewrite <- (app_nil_r (serialize _ _)), fun_toks, app_nil_r.
      rewrite forallb_app. cbn [forallb]. rewrite forallb_app. cbn [forallb].
      rewrite (IH [] Hwr eq_refl), pop_all_cst, forallb_app, Hst, !Hpunct by reflexivity.
      rewrite (params_forallb args IHa Hwa).
      destruct c; cbn [const_toks forallb]; [rewrite Hpunct by reflexivity|]; reflexivity.
  Qed.

  Lemma wrapper_head_forallb : forall name suf ret args,
    forallb q (map lex_word (String.append name suf :: cty_words ret ++
               flat_map (fun p => fst p :: cty_words (snd p)) (name_args 0 args))) = true ->
    forallb q (wrapper_head name suf ret args) = true.
  Proof.
    intros name suf ret args Hw. cbn [map forallb] in Hw.
    rewrite map_app, forallb_app in Hw.
    apply andb_true_iff in Hw as [Hn Hw].
    apply andb_true_iff in Hw as [Hr Ha].
    rewrite wrapper_head_eq, forallb_app. cbn [forallb].
    rewrite (serialize_forallb ret [] Hr eq_refl), Hn.
    apply params_forallb.
    - apply Forall_forall. intros p _ st. apply serialize_forallb.
    - unfold named_args. now rewrite flat_map_concat_map, map_map, <- flat_map_concat_map.
  Qed.
End SerForall.

Lemma lex_word_not_lbrace : forall s, not_lbrace (lex_word s) = true.
Proof.
  intros s. unfold lex_word.
  destruct (String.eqb s "const"); [reflexivity|].
  destruct (String.eqb s "return"); reflexivity.
Qed.

Lemma words_not_lbrace : forall ws, forallb not_lbrace (map lex_word ws) = true.
Proof.
  induction ws as [|w ws IH]; [reflexivity|].
  cbn [map forallb]. now rewrite lex_word_not_lbrace, IH.
Qed.

Lemma wrapper_head_no_lbrace : forall name suf ret args,
  forallb not_lbrace (wrapper_head name suf ret args) = true.
Proof.
  intros name suf ret args. apply wrapper_head_forallb; [|reflexivity|apply words_not_lbrace].
  intros t H. destruct t; try discriminate H; reflexivity.
Qed.

Lemma after_lbrace_app : forall A B, forallb not_lbrace A = true ->
  after_lbrace (A ++ TLBrace :: B) = B.
Proof.
  induction A as [|x A IH]; intros B H; [reflexivity|].
  cbn [forallb] in H. apply andb_true_iff in H as [Hx HA].
  cbn [app after_lbrace]. destruct x; try (apply IH; exact HA). discriminate Hx.
Qed.

Lemma before_lbrace_app : forall A B, forallb not_lbrace A = true ->
  before_lbrace (A ++ TLBrace :: B) = A.
Proof.
  induction A as [|x A IH]; intros B H; [reflexivity|].
  cbn [forallb] in H. apply andb_true_iff in H as [Hx HA].
  cbn [app before_lbrace]. destruct x; try (rewrite (IH B HA); reflexivity). discriminate Hx.
Qed.

Lemma call_toks_plain : forall a : list (string * cty),
  forallb plain_word (map fst a) = true ->
  map (fun p => [lex_word (fst p)]) a = map (fun s => [TId s]) (map fst a).
Proof.
  induction a as [|p a IH]; intros H; [reflexivity|].
  cbn [map forallb] in H. apply andb_true_iff in H as [Hp Ha].
  cbn [map]. now rewrite (lex_word_plain _ Hp), (IH Ha).
Qed.

Lemma idents_sep : forall names tl,
  idents_until_rpar (sep_join [TComma] (map (fun s => [TId s]) names) ++ TRPar :: tl) = names.
Proof.
  induction names as [|s [|s' names] IH]; intros tl; [reflexivity..|].
  cbn [map]. rewrite sep_join_cons. cbn [app idents_until_rpar]. f_equal. apply IH.
Qed.

(* the call statement found behind "{", with and without `return` in front; in the second
   case the callee's own token x may be `return`, and what follows its "(" decides *)
Lemma call_args_return : forall A x r, forallb not_lbrace A = true ->
  call_args (A ++ TLBrace :: TReturn :: x :: TLPar :: r) = idents_until_rpar r.
Proof. intros A x r HA. unfold call_args. rewrite after_lbrace_app by exact HA. now destruct x. Qed.

Lemma call_args_plain : forall A x r, forallb not_lbrace A = true ->
  (forall r', r <> TLPar :: r') ->
  call_args (A ++ TLBrace :: x :: TLPar :: r) = idents_until_rpar r.
Proof.
  intros A x r HA Hr. unfold call_args. rewrite after_lbrace_app by exact HA.
  destruct x; try reflexivity. destruct r as [|y r']; [reflexivity|].
  destruct y; try reflexivity. now elim (Hr r').
Qed.

Theorem args_forwarded_in_order : forall name suf ret args,
  forallb plain_word (param_names args) = true ->
  call_args (wrapper name suf ret args) = param_names args.
Proof.
  intros name suf ret args Hplain. unfold param_names in *.
  rewrite wrapper_split. unfold wrapper_body. rewrite (call_toks_plain _ Hplain).
  destruct (is_void ret); cbn [app].
  - rewrite call_args_plain; [apply idents_sep|apply wrapper_head_no_lbrace|].
    intros r'. destruct (map fst (name_args 0 args)) as [|s [|s' names]]; discriminate.
  - rewrite call_args_return by apply wrapper_head_no_lbrace. apply idents_sep.
Qed.

Lemma lex_word_not_return : forall s,
  negb (String.eqb s "return") = true -> not_return (lex_word s) = true.
Proof.
  intros s H. apply negb_true_iff in H. unfold lex_word. rewrite H.
  destruct (String.eqb s "const"); reflexivity.
Qed.

Lemma words_not_return : forall ws,
  forallb (fun s => negb (String.eqb s "return")) ws = true ->
  forallb not_return (map lex_word ws) = true.
Proof.
  induction ws as [|w ws IH]; intros H; [reflexivity|].
  cbn [forallb] in H. apply andb_true_iff in H as [Hw Hws].
  cbn [map forallb]. now rewrite (lex_word_not_return w Hw), (IH Hws).
Qed.

Lemma wrapper_no_return : forall name suf ret args,
  no_return_words name suf ret args = true ->
  forallb not_return (wrapper_head name suf ret args) = true /\
  (is_void ret = true -> forallb not_return (wrapper_body name ret args) = true).
Proof.
  intros name suf ret args H. unfold no_return_words in H. cbn [forallb] in H.
  apply andb_true_iff in H as [Hname Hw]. split.
  - apply wrapper_head_forallb; [|reflexivity|now apply words_not_return].
    intros t Ht. destruct t; try discriminate Ht; reflexivity.
  - intros Hv. unfold wrapper_body. rewrite Hv.
    cbn [app forallb]. rewrite (lex_word_not_return name Hname), forallb_app.
    rewrite forallb_sep_join; [reflexivity..|].
    apply Forall_forall. intros x Hx. apply in_map_iff in Hx as [p [<- Hp]].
    cbn [forallb]. rewrite lex_word_not_return; [reflexivity|].
    cbn [forallb] in Hw. apply andb_true_iff in Hw as [_ Hw].
    rewrite forallb_app in Hw. apply andb_true_iff in Hw as [_ Hw].
    rewrite forallb_forall in Hw. apply Hw, in_flat_map. exists p. split; [exact Hp|now left].
Qed.

Lemma wf_wrapper_params : forall td (a : list (string * cty)),
  forallb (fun p => ident_ok td (fst p) && simple (snd p) && wf_ty td (snd p)) a = true ->
  forallb (fun p => wf_oname td (fst p) && wf_ty td (snd p))
          (map (fun p => (Some (fst p), snd p)) a) = true /\
  forallb simple_param (map (fun p => (Some (fst p), snd p)) a) = true.
Proof.
  induction a as [|p a IH]; intros H; [split; reflexivity|].
  cbn [forallb] in H. apply andb_true_iff in H as [Hp Ha].
  apply andb_true_iff in Hp as [Hp Hw].
  apply andb_true_iff in Hp as [Hi Hs].
  destruct (IH Ha) as [IH1 IH2]. unfold simple in Hs.
  cbn [map forallb]. unfold simple_param at 1. cbn [fst snd wf_oname is_some].
  now rewrite IH1, IH2, Hi, Hw, Hs.
Qed.

(* what the text before "{" declares, whatever the parameter types are *)
Theorem wrapper_head_reading : forall td name suf ret args,
  ident_ok td (String.append name suf) = true -> ptr_base ret = true -> wf_ty td ret = true ->
  forallb (fun p => wf_oname td (fst p) && wf_ty td (snd p)) (named_args args) = true ->
  denote_td td (before_lbrace (wrapper name suf ret args)) =
  match map_opt rd_param (named_args args) with
  | Some a' => Some (String.append name suf, CFun false ret a')
  | None => None
  end.
Proof.
  intros td name suf ret args Hns Hpb Hwr Hargs.
  rewrite wrapper_split, before_lbrace_app by apply wrapper_head_no_lbrace.
  rewrite wrapper_head_eq, denote_td_p_decl.
  destruct (ident_ok_facts td _ Hns) as [Hl [Hk _]]. rewrite Hl.
  set (ns := String.append name suf) in *. set (a := named_args args) in *.
  assert (Hsv : sole_void a = false).
  { unfold a, named_args. now destruct (name_args 0 args) as [|[n t] [|q l]]. }
  pose proof (ret_len ret [] None Hpb) as Hrl. cbn [stack map app param_stack length] in Hrl.
  remember (2 * length (serialize ret [] ++ TId ns :: params_toks a) + 2) as F eqn:HF.
  rewrite app_length in HF. cbn [length] in HF.
  rewrite (ret_prefix td ret [])
    by (assumption || reflexivity || (cbn [length]; lia) || (cbn [nokw_head]; now rewrite Hk)).
  cbn [length ptrs]. rewrite Nat.sub_0_r, p_dtor_name by (exact Hns || fuel).
  rewrite <- (app_nil_r (params_toks a)), suffix_params; try assumption; [| |fuel].
  - destruct (map_opt rd_param a); [|reflexivity]. now rewrite p_suffix_end by (reflexivity || fuel).
  - apply Forall_forall. intros p _. apply reads_as_all.
Qed.

Local Open Scope N_scope.

Example decl_roundtrip_partial_nonvacuous :
  simple ex_cb = true /\ wf_names ex_cb "cb" /\
  serialize ex_cb [SName "cb"] =
    [TConst; TId "unsigned"; TId "long"; TStar; TLPar; TStar; TConst; TId "cb"; TRPar;
     TLPar; TId "struct"; TId "S"; TStar; TId "s"; TComma;
            TId "void"; TLPar; TStar; TRPar; TLPar; TId "void"; TRPar; TComma;
            TId "char"; TLBrk; TNum 4; TRBrk; TComma;
            TId "int"; TId "m"; TLBrk; TNum 3; TRBrk; TLBrk; TNum 3; TRBrk; TRPar] /\
  denote (serialize ex_cb [SName "cb"]) = Some ("cb", ex_cb).
Proof. repeat split; vm_compute; reflexivity. Qed.

Example decl_roundtrip_typedef_nonvacuous :
  let t := CArr (CPtr false (CBase ["size_t"] true)) 4 in
  simple t = true /\ wf_names_td ["size_t"] t "v" /\
  denote_td ["size_t"] (serialize t [SName "v"]) = Some ("v", t) /\
  denote (serialize t [SName "v"]) = None.
Proof. repeat split; vm_compute; reflexivity. Qed.

Example simple_conjuncts_needed :
  denote (serialize (CPtr false (CArr ex_int 3)) [SName "p"]) = Some ("p", CArr (CPtr false ex_int) 3) /\
  denote (serialize (CArr (CArr ex_int 3) 2) [SName "m"]) = Some ("m", CArr (CArr ex_int 2) 3) /\
  serialize (CPtr false (CFun true ex_int [(None, ex_int)])) [SName "fp"] =
    [TId "int"; TLPar; TConst; TStar; TId "fp"; TRPar; TLPar; TId "int"; TRPar] /\
  denote (serialize (CPtr false (CFun true ex_int [(None, ex_int)])) [SName "fp"]) = None /\
  denote (serialize (CFun false ex_int [(None, CFun false ex_int [])]) [SName "f"]) = None /\
  denote (serialize (CArr (CPtr false (CFun false ex_int [(None, ex_int)])) 3) [SName "a"]) =
    Some ("a", CPtr false (CFun false (CArr ex_int 3) [(None, ex_int)])) /\
  serialize (CFun false (CPtr false (CFun false ex_int [])) []) [SName "f"] =
    [TId "int"; TLPar; TStar; TRPar; TLPar; TId "void"; TRPar;
     TLPar; TId "f"; TRPar; TLPar; TId "void"; TRPar] /\
  denote (serialize (CFun false (CPtr false (CFun false ex_int [])) []) [SName "f"]) = None /\
  denote (serialize (CFun false (CArr ex_int 3) []) [SName "f"]) = None /\
  denote (serialize (CFun false ex_int [(Some "p", CPtr false (CArr ex_int 3))]) [SName "f"]) =
    Some ("f", CFun false ex_int [(Some "p", CArr (CPtr false ex_int) 3)]).
Proof. repeat split; vm_compute; reflexivity. Qed.

Example wf_conjuncts_needed :
  simple ex_int = true /\
  denote (serialize ex_int [SName "long"]) = None /\
  denote (serialize ex_int [SName "const"]) = None /\
  denote_td ["T"] (serialize ex_int [SName "T"]) = None /\
  denote (serialize ex_int [SName "struct"]) = None /\
  denote (serialize (CBase ["foo"] false) [SName "x"]) = None /\
  denote (serialize (CBase [] false) [SName "x"]) = None /\
  denote (serialize (CBase ["struct"; "int"] false) [SName "x"]) = None /\
  denote_td ["const"] (serialize (CBase ["const"] false) [SName "x"]) = None /\
  denote (serialize (CFun false ex_int [(Some "int", ex_char)]) [SName "f"]) =
    Some ("f", CFun false ex_int [(None, CBase ["char"; "int"] false)]) /\
  simple (CFun false ex_int [(None, ex_void)]) = true /\
  denote (serialize (CFun false ex_int [(None, ex_void)]) [SName "f"]) =
    Some ("f", CFun false ex_int []).
Proof. repeat split; vm_compute; reflexivity. Qed.

Example wrapper_nonvacuous :
  wrapper "foo" "__extern" ex_int ex_args =
    [TId "int"; TId "foo__extern"; TLPar; TId "int"; TId "a"; TComma; TId "char"; TId "arg_0";
     TComma; TId "void"; TStar; TId "b"; TComma; TId "int"; TId "arg_1"; TRPar; TLBrace;
     TReturn; TId "foo"; TLPar; TId "a"; TComma; TId "arg_0"; TComma; TId "b"; TComma;
     TId "arg_1"; TRPar; TSemi; TRBrace] /\
  param_names ex_args = ["a"; "arg_0"; "b"; "arg_1"] /\
  forallb plain_word (param_names ex_args) = true /\
  call_args (wrapper "foo" "__extern" ex_int ex_args) = ["a"; "arg_0"; "b"; "arg_1"] /\
  wf_wrapper [] "foo" "__extern" ex_int ex_args /\
  no_return_words "foo" "__extern" ex_int ex_args = true /\
  denote (before_lbrace (wrapper "foo" "__extern" ex_int ex_args)) =
    Some ("foo__extern",
          CFun false ex_int [(Some "a", ex_int); (Some "arg_0", ex_char);
                             (Some "b", CPtr false ex_void); (Some "arg_1", ex_int)]) /\
  wrapper "g" "_w" (CBase ["void"] true) [] =
    [TConst; TId "void"; TId "g_w"; TLPar; TId "void"; TRPar; TLBrace;
     TId "g"; TLPar; TRPar; TSemi; TRBrace].
Proof. repeat split; vm_compute; reflexivity. Qed.

Example wrapper_conditions_needed :
  call_args (wrapper "f" "_w" ex_int [(Some "return", ex_int); (Some "x", ex_int)]) = [] /\
  body_returns (wrapper "return" "_w" ex_void []) = true /\
  In TReturn (wrapper "return" "_w" ex_void []) /\
  body_returns (wrapper "f" "_w" (CBase ["V"] false) []) = true /\
  wrapper_head "g" "_w" (CPtr false (CFun false ex_int [(None, ex_char)])) [(None, ex_int)] =
    [TId "int"; TLPar; TStar; TRPar; TLPar; TId "char"; TRPar; TId "g_w"; TLPar;
     TId "int"; TId "arg_0"; TRPar] /\
  denote (before_lbrace (wrapper "g" "_w" (CPtr false (CFun false ex_int [(None, ex_char)]))
                                 [(None, ex_int)])) = None /\
  param_names [(Some "arg_0", ex_int); (None, ex_char)] = ["arg_0"; "arg_0"].
Proof. repeat split; try (vm_compute; reflexivity). vm_compute. tauto. Qed.

