(* C16 — the parameter names of the wrapper, [Model.param_names]. *)
From Coq Require Import List String Bool Arith.
From BG Require Import C16.Model C16.Names C16.NamesProofs.
Import ListNotations.
Open Scope string_scope.

(* A wrapper never declares two parameters of one name (so it compiles as far as names go, and forwards each
   argument to the right place by name) provided the C function's own parameter names are distinct -- which C
   guarantees -- and none of them is one of the names the wrapper invents for the unnamed ones. *)
Theorem param_names_nodup : forall args,
  NoDup (named args) ->
  forallb (fun n => negb (is_generated n (unnamed_count args))) (named args) = true ->
  NoDup (param_names args).
Proof. intros args Hnd Hside. apply param_names_nodup_iff. now split. Qed.
Print Assumptions param_names_nodup.

Theorem param_names_keep_named : forall args,
  List.length (param_names args) = List.length args /\
  (forall i n t, nth_error args i = Some (Some n, t) -> nth_error (param_names args) i = Some n).
Proof.
  intros args. unfold param_names. split.
  - rewrite map_length. apply name_args_length.
  - intros i n t H. eapply name_args_keep; eassumption.
Qed.
Print Assumptions param_names_keep_named.

(* without the side condition the statement is false: `int f(int, int arg_0)` (known finding
   C16-scenario:wrapper-does-not-compile:unnamed-parameter-clash) *)
Theorem param_names_clash_refuted : exists args,
  NoDup (named args) /\ ~ NoDup (param_names args).
Proof.
  exists [(None, CBase ["int"] false); (Some "arg_0", CBase ["int"] false)].
  split.
  - change (NoDup ["arg_0"]). constructor; [intros [] | constructor].
  - change (~ NoDup ["arg_0"; "arg_0"]). intros H.
    inversion H as [|x l Hnotin _]; subst. apply Hnotin. now left.
Qed.
Print Assumptions param_names_clash_refuted.

(* no generated name may be left out of the side condition: a parameter called arg_<k>, k below
   the number of unnamed ones, clashes *)
Theorem param_names_condition_needed : forall n k t t',
  k < n ->
  ~ NoDup (param_names ((Some (String.append "arg_" (dec k)), t) :: repeat (None, t') n)).
Proof.
  intros n k t t' Hk H. apply param_names_nodup_iff in H as [_ H].
  rewrite named_some, named_repeat, unnamed_some, unnamed_repeat in H. cbn [forallb] in H.
  rewrite (proj2 (is_generated_In _ n)) in H; [discriminate|].
  apply (in_map gen), in_seq. split; [apply Nat.le_0_l|exact Hk].
Qed.
Print Assumptions param_names_condition_needed.

Example names_example :
  param_names [(Some "arg_1", CBase ["int"] false); (None, CBase ["int"] false); (Some "arg_3", CBase ["int"] false)]
    = ["arg_1"; "arg_0"; "arg_3"] /\
  is_generated "arg_1" 1 = false /\ is_generated "arg_0" 1 = true.
Proof. vm_compute. repeat split; reflexivity. Qed.
